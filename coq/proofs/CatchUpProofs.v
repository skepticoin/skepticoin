(* Catch-up of a FORKED requester that is strictly behind, over model/Sync.v (Section CatchUp).

   `catch_up batch main height_of fuel rc` is the list of ids the requester (chain `rc`, ids by height, genesis first)
   is told about by a server with active chain `main`: the first reply answers the block locator of rc; every non-empty
   reply is followed by a request whose only start hash is the LAST id of that reply, until an empty reply arrives (or
   `fuel` follow-up requests have been made).

   Unless the first request is answered "no new info", the told list is the first fuel + 1 batches of main from the
   server's start height on (catch_up_window): a request that names an id of main is answered with the batch after it
   (SyncProofs.serve_after), so the replies tile main.

   SETTING (Section CatchUpProofs).  main = common ++ rest, rc = common ++ side, common <> [] (shared prefix, genesis
   included; the fork point is the last element of common; side = [] is the linear case); height_of is consistent with
   main; every id of `side` is off the server's active chain and is either unknown to the server or known to it at a
   height strictly below the server's head height; the requester is strictly behind (length rc < length main);
   0 < batch.  Then the first request is not answered "no new info" and the start height st0 satisfies
   1 <= st0 <= length common (first_reply_start); so with enough fuel the told list is
   skipn st0 main = (the part of common from height st0 on) ++ rest, which contains every id of `rest`
   (catch_up_covers), and it never contains anything that is not on main, is in height order and has no gaps
   (catch_up_only_main, catch_up_contiguous).

   NOT COVERED by any theorem of this file:
   - side-branch ids that the server knows AT OR ABOVE its head height: the scan stops at such an id with the empty
     "no new info" reply before it reaches any common ancestor (SyncProofs.side_branch_tip_silences;
     ex_side_at_head_silences below shows what `catch_up` computes then: nothing).  If the server's height_of
     agrees with the position of the ids in rc this cannot happen for a strictly shorter requester
     (see catch_up_covers_positional).  A requester whose chain is as long as or longer than the server's is
     not required to switch; its tip, if the server stores it, is such an id;
   - more than two nodes, a server whose chain changes during the exchange, lost / reordered / duplicated messages,
     invalid blocks, and what the requester does with the ids it was told about (fetching the blocks, the reorg). *)
From Coq Require Import NArith PeanoNat List Bool Lia.
From SkV Require Import Sync ListFacts SyncProofs SyncRoundProofs.
Import ListNotations.
Open Scope N_scope.

(* every announced id is an id of the requester's chain, at some position *)
Lemma locator_ids_in rc s : In s (locator_ids rc) -> exists p, nth_error rc p = Some s.
Proof.
  unfold locator_ids. rewrite in_flat_map. intros (h & _ & Hin).
  destruct (nth_error rc (N.to_nat h)) as [i|] eqn:E; [|destruct Hin].
  destruct Hin as [<-|[]]. exists (N.to_nat h). exact E.
Qed.

Section Follow.
  Variable batch : N.
  Variable main : list N.
  Variable height_of : N -> option N.
  Hypothesis Hb : 0 < batch.
  Hypothesis Hne : main <> [].
  Hypothesis Hcons : forall i h, nth_error main (N.to_nat h) = Some i -> height_of i = Some h.
  Notation serve := (serve batch main height_of).
  Notation follow := (follow batch main height_of).
  Notation B := (N.to_nat batch).

  Lemma follow_nil k acc : follow k [] acc = acc.
  Proof. destruct k; reflexivity. Qed.

  (* an empty reply ends the exchange, and so would asking on with it: one equation covers both *)
  Lemma follow_snoc k r x acc : follow (S k) (r ++ [x]) acc = follow k (serve [x]) (acc ++ serve [x]).
  Proof.
    cbn [Sync.follow]. rewrite rev_unit. destruct (serve [x]); [|reflexivity].
    rewrite follow_nil. symmetry. apply app_nil_r.
  Qed.

  (* If main = pre ++ tl and the last reply was the batch at the front of tl, the requester ends up having been told
     the first fuel + 1 batches of tl: each request names the last id x of the previous batch,
     main = (pre ++ ...) ++ x :: tl', and serve_after answers with the batch at the front of tl'. *)
  Lemma follow_window fuel : forall pre tl acc,
    main = pre ++ tl ->
    follow fuel (firstn B tl) (acc ++ firstn B tl) = acc ++ firstn (S fuel * B) tl.
  Proof.
    induction fuel as [|k IH]; intros pre tl acc Hm.
    - cbn [Sync.follow]. rewrite Nat.mul_1_l. reflexivity.
    - destruct tl as [|y tl']; [rewrite !firstn_nil; apply follow_nil|].
      destruct (@exists_last _ (firstn B (y :: tl'))) as (r & x & Hr).
      { destruct B eqn:EB; [lia|discriminate]. }
      set (tl := y :: tl') in *.
      assert (Hm' : main = (pre ++ firstn B tl) ++ skipn B tl) by (rewrite <- app_assoc, firstn_skipn; exact Hm).
      assert (Hx : serve [x] = firstn B (skipn B tl)).
      { apply (serve_after main height_of Hne Hcons batch (pre ++ r) x _ [] []); [|constructor].
        rewrite Hm', Hr, <- !app_assoc. reflexivity. }
      rewrite Hr at 1. rewrite follow_snoc, Hx, (IH _ _ _ Hm').
      change (S (S k) * B)%nat with (B + S k * B)%nat. rewrite firstn_add. symmetry. apply app_assoc.
  Qed.

  Theorem catch_up_window fuel rc :
    scan main height_of (locator_ids rc) <> Some None ->
    catch_up batch main height_of fuel rc =
      firstn (S fuel * B) (skipn (N.to_nat (start_of main height_of (locator_ids rc))) main).
  Proof.
    intros H. unfold Sync.catch_up. rewrite (serve_window main height_of Hne batch _ H).
    exact (follow_window fuel _ _ [] (eq_sym (firstn_skipn _ main))).
  Qed.
End Follow.

Section CatchUpProofs.
  Variable batch : N.
  Variable main : list N.
  Variable height_of : N -> option N.
  Variables common rest side : list N.
  Variable rc : list N.

  Hypothesis Hb : 0 < batch.
  Hypothesis Hmain : main = common ++ rest.
  Hypothesis Hrc : rc = common ++ side.
  Hypothesis Hcommon : common <> [].
  Hypothesis Hcons : forall i h, nth_error main (N.to_nat h) = Some i -> height_of i = Some h.
  Hypothesis Hside : forall x, In x side ->
    ~ In x main /\ (height_of x = None \/ exists hx, height_of x = Some hx /\ hx < head_height main).
  Hypothesis Hbehind : (length rc < length main)%nat.

  Notation serve := (serve batch main height_of).
  Notation scan := (scan main height_of).
  Notation follow := (follow batch main height_of).
  Notation catch_up := (catch_up batch main height_of).
  Notation start_of := (start_of main height_of).

  Lemma cu_main_ne : main <> [].
  Proof. rewrite Hmain. intros E. apply app_eq_nil in E. exact (Hcommon (proj1 E)). Qed.

  (* the fork point is strictly below the server's head *)
  Lemma cu_rest_ne : rest <> [].
  (* The proof needs Hmain, Hrc and Hbehind only.  `Proof using` names more on purpose: the lemma is stated with
     every hypothesis of the section except Hcommon. *)
  Proof using Hb Hmain Hrc Hcons Hside Hbehind. clear Hcommon.
    intros E. pose proof Hbehind as H. rewrite Hrc, Hmain, E, !app_length in H. cbn [length] in H. lia.
  Qed.

  Let L := length main.

  Lemma cu_head_height : head_height main = N.of_nat L - 1.
  Proof. reflexivity. Qed.

  Lemma side_skippable x : In x side -> skippable main height_of x.
  Proof using Hmain Hcommon Hcons Hside.
    intros Hx. apply (skippable_iff main height_of cu_main_ne Hcons).
    destruct (Hside x Hx) as [Hnot [Hn|(hx & Hh & Hlt)]]; [left; exact Hn|].
    right. exists hx. auto.
  Qed.

  (* every announced id is an id of side, which the server skips, or an id of common, which is a hit because main
     goes on beyond common *)
  Lemma locator_class s :
    In s (locator_ids rc) ->
    skippable main height_of s \/ exists p, (p < length common)%nat /\ hit main height_of s (N.of_nat p).
  Proof.
    rewrite Hrc. intros Hin. destruct (locator_ids_in _ s Hin) as [p Hp].
    destruct (Nat.lt_ge_cases p (length common)) as [Hlt|Hge].
    - right. exists p. split; [exact Hlt|]. rewrite nth_error_app1 in Hp by exact Hlt.
      assert (Hn : main_at main (N.of_nat p) = Some s)
        by (unfold main_at; rewrite Nat2N.id, Hmain, nth_error_app1; assumption).
      apply hit_below; [exact cu_main_ne|apply Hcons, Hn|exact Hn|].
      pose proof cu_rest_ne as Hr. unfold head_height. rewrite Hmain, app_length.
      destruct rest; [congruence|cbn [length]; lia].
    - left. rewrite nth_error_app2 in Hp by exact Hge. eapply side_skippable, nth_error_In, Hp.
  Qed.

  (* the start height used for the first reply *)
  Definition st0 : N := start_of (locator_ids rc).

  (* The first request is never answered "no new info", and the reply starts at or below the block after the fork
     point: no announced id is on main (start 1, the for/else default), or the first that is lies on common and the
     reply starts right above it. *)
  Theorem first_reply_start :
    scan (locator_ids rc) <> Some None /\
    1 <= st0 <= N.of_nat (length common) /\
    (st0 = 1 \/ exists s, In s (locator_ids rc) /\ In s common /\ nth_error main (N.to_nat (st0 - 1)) = Some s).
  Proof.
    split.
    - intros E. apply scan_spec in E. destruct E as (p & s & suf & Heq & _ & Hs).
      destruct (locator_class s) as [Hk|(q & _ & Hh)]; [rewrite Heq; apply in_elt| |].
      + exact (skippable_not_silent _ _ s Hk Hs).
      + exact (hit_not_silent _ _ s _ Hh Hs).
    - unfold st0. destruct (start_of_cases main height_of (locator_ids rc)) as [->|(s & hs & Hin & Hh & ->)].
      + split; [|left; reflexivity]. split; [reflexivity|]. destruct common; [congruence|cbn [length]; lia].
      + destruct (locator_class s Hin) as [Hk|(q & Hq & Hh')]; [destruct (skippable_not_hit _ _ s hs Hk Hh)|].
        assert (hs = N.of_nat q) by (destruct Hh, Hh'; congruence). subst hs.
        split; [lia|]. right. exists s. split; [exact Hin|].
        destruct Hh as (_ & Hm & _). unfold main_at in Hm. rewrite N.add_sub. split; [|exact Hm].
        rewrite Nat2N.id, Hmain, nth_error_app1 in Hm by exact Hq. exact (nth_error_In _ _ Hm).
  Qed.

  Lemma first_reply_nonempty : serve (locator_ids rc) <> [].
  Proof.
    intros E. apply (serve_empty_iff main height_of cu_main_ne batch _ Hb) in E.
    destruct E as [E|[_ E]]; [exact (proj1 first_reply_start E)|].
    (* head height 0 would leave no room for rest above common *)
    pose proof cu_rest_ne as Hr. unfold head_height in E. rewrite Hmain, app_length in E.
    destruct common; [congruence|]. destruct rest; [congruence|]. cbn [length] in E. lia.
  Qed.

  Theorem catch_up_closed fuel :
    catch_up fuel rc = firstn (S fuel * N.to_nat batch) (skipn (N.to_nat st0) main).
  Proof. exact (catch_up_window batch main height_of Hb cu_main_ne Hcons fuel rc (proj1 first_reply_start)). Qed.

  (* with enough fuel the told list is all of main from the start height on: the tail of common, then all of rest *)
  Theorem catch_up_full fuel :
    (length main <= N.to_nat st0 + S fuel * N.to_nat batch)%nat ->
    catch_up fuel rc = skipn (N.to_nat st0) common ++ rest.
  Proof.
    intros Hf. destruct first_reply_start as (_ & [_ Hst] & _).
    rewrite catch_up_closed, firstn_all2 by (rewrite skipn_length; lia).
    rewrite Hmain. apply skipn_app_le. lia.
  Qed.

  Corollary catch_up_full_length_main : catch_up (length main) rc = skipn (N.to_nat st0) common ++ rest.
  Proof.
    apply catch_up_full. pose proof (le_mul_pos (S (length main)) (N.to_nat batch)). lia.
  Qed.

  (* every block of the server's active chain above the fork point is told to the requester *)
  Theorem catch_up_covers : exists fuel, forall i, In i rest -> In i (catch_up fuel rc).
  Proof.
    exists (length main). intros i Hi. rewrite catch_up_full_length_main. apply in_or_app. right. exact Hi.
  Qed.

  (* the told list is a gap-free, height-ordered segment of main starting at height st0 <= length common ... *)
  Theorem catch_up_contiguous fuel :
    exists n, catch_up fuel rc = firstn n (skipn (N.to_nat st0) main) /\
              forall k, (k < n)%nat -> (N.to_nat st0 + k < length main)%nat ->
                        nth_error (catch_up fuel rc) k = nth_error main (N.to_nat st0 + k).
  Proof.
    eexists. split; [apply catch_up_closed|]. intros k Hk _. rewrite catch_up_closed.
    rewrite nth_error_firstn_lt by exact Hk. apply nth_error_skipn_add.
  Qed.

  (* ... in particular the requester is never told about anything off the server's active chain *)
  Theorem catch_up_only_main fuel i : In i (catch_up fuel rc) -> In i main.
  Proof.
    rewrite catch_up_closed. intros H.
    rewrite <- (firstn_skipn (N.to_nat st0) main). apply in_or_app. right.
    rewrite <- (firstn_skipn (S fuel * N.to_nat batch) (skipn _ main)). apply in_or_app. left. exact H.
  Qed.

  (* stored prefix + told ids = the complete active chain of the server (up to the overlap common[st0..]) *)
  Corollary catch_up_completes :
    firstn (N.to_nat st0) common ++ catch_up (length main) rc = main.
  Proof.
    rewrite catch_up_full_length_main, app_assoc, firstn_skipn. symmetry. exact Hmain.
  Qed.
End CatchUpProofs.

(* If the server's height_of, where defined on an id of the requester's side branch, agrees with the position of that
   id in the requester's chain (as it does when both nodes compute heights from the same parent links), then the
   "known below the head" hypothesis follows from "strictly behind". *)
Theorem catch_up_covers_positional batch main height_of common rest side :
  0 < batch -> main = common ++ rest -> common <> [] ->
  (forall i h, nth_error main (N.to_nat h) = Some i -> height_of i = Some h) ->
  (forall x, In x side -> ~ In x main) ->
  (forall p x, nth_error (common ++ side) p = Some x -> height_of x = None \/ height_of x = Some (N.of_nat p)) ->
  (length (common ++ side) < length main)%nat ->
  forall i, In i rest -> In i (catch_up batch main height_of (length main) (common ++ side)).
Proof.
  intros Hb Hmain Hcommon Hcons Hoff Hpos Hbehind i Hi.
  assert (Hside : forall x, In x side ->
            ~ In x main /\ (height_of x = None \/ exists hx, height_of x = Some hx /\ hx < head_height main)).
  { intros x Hx. split; [exact (Hoff x Hx)|].
    apply In_nth_error in Hx. destruct Hx as [q Hq].
    assert (Hql : (q < length side)%nat) by (apply nth_error_Some; congruence).
    destruct (Hpos (length common + q)%nat x) as [Hn|Hs].
    - rewrite nth_error_app2, Nat.add_comm, Nat.add_sub by apply Nat.le_add_r. exact Hq.
    - left. exact Hn.
    - right. eexists. split; [exact Hs|]. rewrite app_length in Hbehind. unfold head_height. lia. }
  rewrite (catch_up_full_length_main batch main height_of common rest side (common ++ side)
             Hb Hmain eq_refl Hcommon Hcons Hside Hbehind).
  apply in_or_app. right. exact Hi.
Qed.

(* non-vacuity; ibd_main = [100; ...; 109], ibd_height_of = heights of exactly these ids (SyncRoundProofs) *)
Definition cu_rc : list N := [100; 101; 201; 202].

Example ex_cu_locator : locator_ids cu_rc = [202; 201; 101; 100].
Proof. vm_compute. reflexivity. Qed.

Example ex_cu_first_reply : serve 3 ibd_main ibd_height_of (locator_ids cu_rc) = [102; 103; 104].
Proof. vm_compute. reflexivity. Qed.

Example ex_cu_catch_up :
  catch_up 3 ibd_main ibd_height_of 10 cu_rc = [102; 103; 104; 105; 106; 107; 108; 109].
Proof. vm_compute. reflexivity. Qed.

(* fuel matters: with one follow-up request only the first two batches have arrived *)
Example ex_cu_catch_up_fuel1 :
  catch_up 3 ibd_main ibd_height_of 1 cu_rc = [102; 103; 104; 105; 106; 107].
Proof. vm_compute. reflexivity. Qed.

(* the hypotheses of the section are satisfiable: the same facts from the general theorems *)
Example ex_cu_closed_thm :
  catch_up 3 ibd_main ibd_height_of 10 cu_rc = skipn 2 [100; 101] ++ [102; 103; 104; 105; 106; 107; 108; 109].
Proof.
  change 2%nat with (N.to_nat (st0 ibd_main ibd_height_of cu_rc)).
  apply (catch_up_full 3 ibd_main ibd_height_of [100; 101] [102; 103; 104; 105; 106; 107; 108; 109]
           [201; 202] cu_rc); try reflexivity; try discriminate.
  - exact ibd_consistent.
  - intros x [<-|[<-|[]]]; (split; [apply (unknown_not_on_main _ _ ibd_consistent)|left]; reflexivity).
  - cbn; lia.
  - vm_compute. lia.
Qed.

Example ex_cu_covers_thm :
  forall i, In i [102; 103; 104; 105; 106; 107; 108; 109] -> In i (catch_up 3 ibd_main ibd_height_of 10 cu_rc).
Proof. intros i Hi. rewrite ex_cu_closed_thm. exact Hi. Qed.

(* a side branch that the server DOES store, below its head (201 at height 2, 202 at height 3): same outcome *)
Definition cu_height_of2 (i : N) : option N :=
  if i =? 201 then Some 2 else if i =? 202 then Some 3 else ibd_height_of i.

Example ex_cu_known_side :
  catch_up 3 ibd_main cu_height_of2 10 cu_rc = [102; 103; 104; 105; 106; 107; 108; 109].
Proof. vm_compute. reflexivity. Qed.

(* a deep fork: a 21-block requester chain that shares only genesis and block 101 with a 40-block server chain.  Its
   locator (heights 20..11 and 4) contains NO id of common, every announced id is unknown to the server, so the start
   height is 1 (the for/else default): the told list overlaps `common` (block 101 is told again) and then covers all
   of rest *)
Definition cu_long_main : list N := map N.of_nat (seq 100 40).
Definition cu_long_height_of (i : N) : option N :=
  if (100 <=? i) && (i <=? 139) then Some (i - 100) else None.
Definition cu_long_rc : list N := [100; 101] ++ map N.of_nat (seq 1000 19).

Example ex_cu_deep_fork :
  locator_ids cu_long_rc = map N.of_nat [1018; 1017; 1016; 1015; 1014; 1013; 1012; 1011; 1010; 1009; 1002]%nat
  /\ catch_up 16 cu_long_main cu_long_height_of 40 cu_long_rc = map N.of_nat (seq 101 39).
Proof. split; vm_compute; reflexivity. Qed.

(* Illustration of what is NOT covered: the requester's side-branch tip 202 is known to the server at the
   server's head height 9 (hypothesis Hside violated; with height_of agreeing with positions this needs a requester
   that is not strictly behind): the scan stops there with the empty "no new info" reply and the requester is told
   nothing, although the common ancestors 101, 100 follow in the locator. *)
Definition cu_height_of3 (i : N) : option N := if i =? 202 then Some 9 else ibd_height_of i.

Example ex_side_at_head_silences : catch_up 3 ibd_main cu_height_of3 10 cu_rc = [].
Proof. vm_compute. reflexivity. Qed.

