(* The node state machine of model/NodeModel.v: the relay path (C09), the pending pool (C13), the adoption of a mined
   block (C12).  The block handler is restated once as a choice between three named transitions (handle_block_eq:
   adopt, rollback, defer); outside bulk download and between deliveries it adopts or does nothing
   (handle_block_live).  The theorems reason about the transitions.  Standard library lists, no std++. *)
From Coq Require Import NArith List Bool Lia.
From SkV Require Import NodeModel ListFacts.
Import ListNotations.
Open Scope N_scope.

(* the state between deliveries outside bulk download *)
Definition Quiescent (s : nstate) :=
  ns_buffer s = [] /\ ns_valid_blocks s = ns_blocks s /\ ns_valid_head s = ns_head s.

Definition block_ids (s : nstate) : list N := map ab_id (ns_blocks s).

(* deliveries outside bulk download *)
Definition live (e : event) : Prop := match e with EBlock _ _ irt0 => irt0 = true | _ => True end.

(* state-dependent admissibility: a live delivery, and a block found by the miner carries a fresh id *)
Definition ok_event (s : nstate) (e : event) : Prop :=
  match e with
  | EBlock _ _ irt0 => irt0 = true
  | ETx _ _ => True
  | EMined b valid => valid = true -> has_block (ns_blocks s) (ab_id b) = false
  end.

Fixpoint relayed_blocks (o : list out) : list N :=
  match o with
  | [] => []
  | ORelayBlock i :: r => i :: relayed_blocks r
  | ORelayTx _ :: r => relayed_blocks r
  end.

Lemma relayed_blocks_app o1 o2 : relayed_blocks (o1 ++ o2) = relayed_blocks o1 ++ relayed_blocks o2.
Proof.
  induction o1 as [|x o1 IH]; [reflexivity|].
  destruct x; cbn [app relayed_blocks]; rewrite IH; reflexivity.
Qed.

Lemma has_block_In l i : has_block l i = true <-> In i (map ab_id l).
Proof. apply existsb_eqb_In_map. Qed.

Lemma has_block_false l i : has_block l i = false <-> ~ In i (map ab_id l).
Proof. rewrite <- not_true_iff_false. apply not_iff_compat, has_block_In. Qed.

Lemma ns_eta s :
  mkNS (ns_blocks s) (ns_head s) (ns_valid_blocks s) (ns_valid_head s) (ns_pool s) (ns_buffer s) (ns_rows s) = s.
Proof. destruct s; reflexivity. Qed.

Lemma new_head_cases l h b : new_head l h b = ab_id b \/ (new_head l h b = h /\ ab_prev b <> h).
Proof.
  unfold new_head. destruct (ab_prev b =? h) eqn:E; [now left|].
  apply N.eqb_neq in E. destruct (height_of l h <? ab_height b); [now left|now right].
Qed.

Lemma new_head_extend l h b : ab_prev b = h -> new_head l h b = ab_id b.
Proof. intros E. unfold new_head. apply N.eqb_eq in E. now rewrite E. Qed.

(* a block the node does not have, on a parent it has, that passed by-itself validation and could be applied *)
Definition wanted (s : nstate) (b : ablock) (v : bverdict) : bool :=
  negb (has_block (ns_blocks s) (ab_id b)) && has_block (ns_blocks s) (ab_prev b) && bv_itself v && bv_apply v.

Lemma wanted_true s b v :
  wanted s b v = true <->
  has_block (ns_blocks s) (ab_id b) = false /\ has_block (ns_blocks s) (ab_prev b) = true /\
  bv_itself v = true /\ bv_apply v = true.
Proof. unfold wanted. rewrite !andb_true_iff, negb_true_iff. tauto. Qed.

Section NodeProofs.
  Variable skip : N.
  Variable tx_valid_at : N -> N -> bool.
  Variable tx_conflict : N -> N -> bool.

  Notation cleanup := (NodeModel.cleanup tx_valid_at).
  Notation set_state := (NodeModel.set_state tx_valid_at).
  Notation handle_block := (NodeModel.handle_block skip tx_valid_at).
  Notation handle_tx := (NodeModel.handle_tx tx_valid_at tx_conflict).
  Notation handle_mined := (NodeModel.handle_mined tx_valid_at).
  Notation admits := (NodeModel.admits tx_valid_at tx_conflict).
  Notation step := (NodeModel.step skip tx_valid_at tx_conflict).
  Notation run := (NodeModel.run skip tx_valid_at tx_conflict).

  (* every pending tx valid at the head; no two share an output *)
  Definition PoolInv (s : nstate) :=
    Forall (fun t => tx_valid_at (ns_head s) t = true) (ns_pool s) /\
    NoDup (ns_pool s) /\
    ForallOrdPairs (fun a b => tx_conflict a b = false) (ns_pool s).

  Fixpoint ok_run (s : nstate) (es : list event) : Prop :=
    match es with
    | [] => True
    | e :: r => ok_event s e /\ ok_run (fst (step s e)) r
    end.

  (* The three things that can happen to a wanted block.  [adopt]: served, validated, the write buffer flushed with
     it; this is also all the miner's handler does.  [rollback]: a rule violation found by in-state validation; back
     to the last validated state, the write buffer dropped.  [defer]: bulk download off the skip heights; served and
     buffered, not validated in state. *)
  Definition adopt (s : nstate) (b : ablock) : nstate :=
    let h := new_head (ns_blocks s) (ns_head s) b in
    mkNS (ns_blocks s ++ [b]) h (ns_blocks s ++ [b]) h (cleanup h (ns_pool s)) []
         (ns_rows s ++ ns_buffer s ++ [ab_id b]).

  Definition rollback (s : nstate) : nstate :=
    mkNS (ns_valid_blocks s) (ns_valid_head s) (ns_valid_blocks s) (ns_valid_head s)
         (cleanup (ns_valid_head s) (ns_pool s)) [] (ns_rows s).

  Definition defer (s : nstate) (b : ablock) : nstate :=
    let h := new_head (ns_blocks s) (ns_head s) b in
    mkNS (ns_blocks s ++ [b]) h (ns_valid_blocks s) (ns_valid_head s) (cleanup h (ns_pool s))
         (ns_buffer s ++ [ab_id b]) (ns_rows s).

  Lemma handle_block_eq s b v irt0 :
    handle_block s b v irt0 =
    if wanted s b v then
      if irt0 || (ab_height b mod skip =? 0) then
        if bv_instate v
        then (adopt s b, if (ns_head (adopt s b) =? ab_id b) && irt0 then [ORelayBlock (ab_id b)] else [])
        else (rollback s, [])
      else (defer s b, [])
    else (s, []).
  Proof.
    unfold NodeModel.handle_block, wanted.
    case (has_block (ns_blocks s) (ab_id b)); [reflexivity|]. case (has_block (ns_blocks s) (ab_prev b)); [|reflexivity].
    case (bv_itself v); [|reflexivity]. case (bv_apply v); [|reflexivity]. case (bv_instate v); reflexivity.
  Qed.

  Lemma handle_mined_eq s b valid :
    handle_mined s b valid = if valid then (adopt s b, [ORelayBlock (ab_id b)]) else (s, []).
  Proof. destruct valid; reflexivity. Qed.

  Variant block_outcome (s : nstate) (b : ablock) (v : bverdict) (irt0 : bool) : nstate -> list out -> Prop :=
  | bo_ignored : wanted s b v = false -> block_outcome s b v irt0 s []
  | bo_rollback : wanted s b v = true -> irt0 || (ab_height b mod skip =? 0) = true -> bv_instate v = false ->
                  block_outcome s b v irt0 (rollback s) []
  | bo_adopt : wanted s b v = true -> irt0 || (ab_height b mod skip =? 0) = true -> bv_instate v = true ->
               block_outcome s b v irt0 (adopt s b)
                             (if (ns_head (adopt s b) =? ab_id b) && irt0 then [ORelayBlock (ab_id b)] else [])
  | bo_defer : wanted s b v = true -> irt0 || (ab_height b mod skip =? 0) = false ->
               block_outcome s b v irt0 (defer s b) [].

  Lemma handle_block_cases s b v irt0 s' o : handle_block s b v irt0 = (s', o) -> block_outcome s b v irt0 s' o.
  Proof.
    rewrite handle_block_eq.
    destruct (wanted s b v) eqn:W; [destruct (irt0 || _) eqn:D; [destruct (bv_instate v) eqn:I|]|];
      intros [= <- <-].
    - apply bo_adopt; assumption.
    - apply bo_rollback; assumption.
    - apply bo_defer; assumption.
    - apply bo_ignored; assumption.
  Qed.

  Lemma admits_true s t ok :
    admits s t ok = true <->
    ok = true /\ tx_valid_at (ns_head s) t = true /\ Forall (fun x => tx_conflict t x = false) (ns_pool s).
  Proof. unfold NodeModel.admits. rewrite !andb_true_iff, negb_true_iff, existsb_false_Forall. apply and_assoc. Qed.

  Lemma handle_tx_inv s t ok s' o :
    handle_tx s t ok = (s', o) ->
    (s' = s /\ o = []) \/
    (~ In t (ns_pool s) /\ ok = true /\ tx_valid_at (ns_head s) t = true /\
     Forall (fun x => tx_conflict t x = false) (ns_pool s) /\ o = [ORelayTx t] /\
     s' = mkNS (ns_blocks s) (ns_head s) (ns_valid_blocks s) (ns_valid_head s) (ns_pool s ++ [t])
               (ns_buffer s) (ns_rows s)).
  Proof.
    unfold NodeModel.handle_tx.
    destruct (existsb (N.eqb t) (ns_pool s)) eqn:E0; [intros [= <- <-]; now left|].
    destruct (admits s t ok) eqn:A; intros [= <- <-]; [right|now left].
    apply admits_true in A as (-> & Hv & Hc). rewrite <- existsb_eqb_In. repeat split; [congruence|assumption..].
  Qed.

  Lemma rollback_quiescent s : Quiescent (rollback s).
  Proof. repeat split. Qed.

  Lemma adopt_quiescent s b : Quiescent (adopt s b).
  Proof. repeat split. Qed.

  Lemma adopt_ids s b : block_ids (adopt s b) = block_ids s ++ [ab_id b].
  Proof. apply map_last. Qed.

  Lemma cleanup_fixed s : PoolInv s -> cleanup (ns_head s) (ns_pool s) = ns_pool s.
  Proof. intros (Hv & _ & _). unfold NodeModel.cleanup. now apply filter_all. Qed.

  Lemma PoolInv_cleanup s s' :
    PoolInv s -> ns_pool s' = cleanup (ns_head s') (ns_pool s) -> PoolInv s'.
  Proof.
    intros (_ & Hnd & Hfop) E. unfold PoolInv. rewrite E. unfold NodeModel.cleanup. split; [|split].
    - apply Forall_filter_true.
    - now apply NoDup_filter.
    - now apply ForallOrdPairs_filter.
  Qed.

  Lemma PoolInv_same s s' : PoolInv s -> ns_pool s' = ns_pool s -> ns_head s' = ns_head s -> PoolInv s'.
  Proof. unfold PoolInv. intros H E1 E2. now rewrite E1, E2. Qed.

  Hypothesis conflict_sym : forall a b, tx_conflict a b = tx_conflict b a.

  Lemma handle_tx_pool_inv s t ok s' o : PoolInv s -> handle_tx s t ok = (s', o) -> PoolInv s'.
  Proof.
    intros HP H. apply handle_tx_inv in H as [(-> & _) | (Hn & _ & Hv & Hc & _ & ->)]; [assumption|].
    destruct HP as (P1 & P2 & P3). unfold PoolInv. cbn [ns_pool ns_head]. split; [|split].
    - apply Forall_app. split; [assumption|]. constructor; [assumption|constructor].
    - now apply NoDup_snoc.
    - apply ForallOrdPairs_snoc; [assumption|]. eapply Forall_impl; [|exact Hc].
      cbn beta. intros a Ha. now rewrite conflict_sym.
  Qed.

  (* between deliveries the rollback target is the state itself: this is why a rejected block leaves no trace *)
  Lemma rollback_fixed s : Quiescent s -> PoolInv s -> rollback s = s.
  Proof.
    intros (Q1 & Q2 & Q3) HP. rewrite <- (ns_eta s) at 2. unfold rollback. rewrite Q1, Q2, Q3. now rewrite cleanup_fixed.
  Qed.

  (* Outside bulk download and between deliveries the handler knows two outcomes: a wanted block that passes
     in-state validation is adopted, and anything else leaves the state as it was. *)
  Theorem handle_block_live s b v :
    Quiescent s -> PoolInv s ->
    handle_block s b v true =
    if wanted s b v && bv_instate v
    then (adopt s b, if ns_head (adopt s b) =? ab_id b then [ORelayBlock (ab_id b)] else [])
    else (s, []).
  Proof.
    intros Q HP. rewrite handle_block_eq, andb_true_r. cbn [orb].
    destruct (wanted s b v), (bv_instate v); try reflexivity. now rewrite rollback_fixed.
  Qed.

  (* a block that fails any of the five checks leaves no trace *)
  Corollary handle_block_live_rejected s b v :
    Quiescent s -> PoolInv s ->
    (has_block (ns_blocks s) (ab_id b) = true \/ has_block (ns_blocks s) (ab_prev b) = false \/
     bv_itself v = false \/ bv_apply v = false \/ bv_instate v = false) ->
    handle_block s b v true = (s, []).
  Proof.
    intros Q HP Hrej. rewrite (handle_block_live _ _ _ Q HP). unfold wanted.
    destruct Hrej as [-> | [-> | [-> | [-> | ->]]]]; now rewrite ?andb_false_r.
  Qed.

  (* C09, what the handler does to the served blocks.  A block is appended only if wanted, and past in-state validation
     whenever that was due, at the skip heights of a bulk download too.  The middle disjunct is the rollback: between
     deliveries (Quiescent) it changes nothing, elsewhere it re-serves ns_valid_blocks. *)
  Theorem handle_block_served s b v irt0 s' o :
    handle_block s b v irt0 = (s', o) ->
    ns_blocks s' = ns_blocks s \/ ns_blocks s' = ns_valid_blocks s \/
    (ns_blocks s' = ns_blocks s ++ [b] /\ wanted s b v = true /\
     (irt0 || (ab_height b mod skip =? 0) = true -> bv_instate v = true)).
  Proof.
    intros H. apply handle_block_cases in H. destruct H as [W|W D I|W D I|W D].
    - now left.
    - right. now left.
    - right. right. now repeat split.
    - right. right. repeat split; [assumption|congruence].
  Qed.

  Theorem relay_only_valid_enter_checked s b v irt0 s' o :
    Quiescent s ->
    handle_block s b v irt0 = (s', o) -> ns_blocks s' = ns_blocks s ++ [b] ->
    bv_itself v = true /\ bv_apply v = true /\
    ((irt0 || (ab_height b mod skip =? 0)) = true -> bv_instate v = true).
  Proof.
    intros (_ & Q2 & _) H Hb.
    assert (Hlen : ns_blocks s <> ns_blocks s ++ [b]).
    { intros E. rewrite <- app_nil_r in E at 1. now apply app_inv_head in E. }
    destruct (handle_block_served _ _ _ _ _ _ H) as [E|[E|(_ & W & I)]]; [congruence..|].
    apply wanted_true in W as (_ & _ & E3 & E4). auto.
  Qed.

  (* C13: every step keeps the pool invariant, whatever the state and the event *)
  Theorem pool_inv_step_strong s e s' o : PoolInv s -> step s e = (s', o) -> PoolInv s'.
  Proof.
    intros HP H. destruct e as [b v irt0|t ok|b valid]; cbn [NodeModel.step] in H.
    - apply handle_block_cases in H. destruct H as [W|W D I|W D I|W D]; [assumption|..];
        (eapply PoolInv_cleanup; [exact HP|reflexivity]).
    - eapply handle_tx_pool_inv; eassumption.
    - rewrite handle_mined_eq in H. destruct valid; injection H as <- <-; [|assumption].
      eapply PoolInv_cleanup; [exact HP|reflexivity].
  Qed.

  (* Quiescent and ok_event are not needed *)
  Theorem pool_inv_step s e s' o : PoolInv s -> Quiescent s -> ok_event s e -> step s e = (s', o) -> PoolInv s'.
  Proof. intros HP _ _ H. eapply pool_inv_step_strong; eassumption. Qed.

  Theorem pool_unchanged_on_reject s b v s' o :
    Quiescent s -> PoolInv s ->
    (has_block (ns_blocks s) (ab_id b) = true \/ has_block (ns_blocks s) (ab_prev b) = false \/
     bv_itself v = false \/ bv_apply v = false \/ bv_instate v = false) ->
    handle_block s b v true = (s', o) -> ns_pool s' = ns_pool s.
  Proof.
    intros Q HP Hrej. rewrite (handle_block_live_rejected _ _ _ Q HP Hrej). now intros [= <- _].
  Qed.

  Theorem mined_invalid_noop s b : handle_mined s b false = (s, []).
  Proof. reflexivity. Qed.

  (* C12: neither Quiescent s nor freshness of the id is needed; Quiescent s' holds because the handler empties the
     buffer and marks the new state validated *)
  Theorem mined_adopted_strong s b s' o :
    handle_mined s b true = (s', o) ->
    ns_blocks s' = ns_blocks s ++ [b] /\ ns_rows s' = ns_rows s ++ ns_buffer s ++ [ab_id b] /\
    o = [ORelayBlock (ab_id b)] /\ Quiescent s' /\
    ns_head s' = new_head (ns_blocks s) (ns_head s) b /\
    ns_pool s' = cleanup (ns_head s') (ns_pool s).
  Proof. intros [= <- <-]. repeat split. Qed.

  (* the form C12 states; its two hypotheses are not used *)
  Theorem mined_adopted s b s' o :
    Quiescent s -> has_block (ns_blocks s) (ab_id b) = false ->
    handle_mined s b true = (s', o) ->
    In (ab_id b) (block_ids s') /\ In (ab_id b) (ns_rows s') /\ o = [ORelayBlock (ab_id b)] /\ Quiescent s' /\
    (ab_prev b = ns_head s -> ns_head s' = ab_id b).
  Proof.
    intros _ _. rewrite handle_mined_eq. intros [= <- <-]. split; [rewrite adopt_ids; apply in_elt|].
    split; [cbn [adopt ns_rows]; rewrite app_assoc; apply in_elt|].
    split; [reflexivity|]. split; [apply adopt_quiescent|]. apply new_head_extend.
  Qed.

  Theorem quiescent_step s e s' o : Quiescent s -> ok_event s e -> step s e = (s', o) -> Quiescent s'.
  Proof.
    intros Q Hok H. destruct e as [b v irt0|t ok|b valid]; cbn [NodeModel.step ok_event] in *.
    - subst irt0. apply handle_block_cases in H. destruct H as [W|W D I|W D I|W D];
        [assumption|apply rollback_quiescent|apply adopt_quiescent|discriminate].
    - apply handle_tx_inv in H as [(-> & _) | (_ & _ & _ & _ & _ & ->)]; [assumption|]. exact Q.
    - rewrite handle_mined_eq in H. destruct valid; injection H as <- _; [apply adopt_quiescent|assumption].
  Qed.

  (* what one ok step does to the served ids and what it relays *)
  Lemma step_relay s e s' o :
    Quiescent s -> ok_event s e -> step s e = (s', o) ->
    (block_ids s' = block_ids s /\ relayed_blocks o = []) \/
    (exists i, block_ids s' = block_ids s ++ [i] /\ ~ In i (block_ids s) /\
               (relayed_blocks o = [] \/ relayed_blocks o = [i])).
  Proof.
    intros (_ & Q2 & _) Hok H. destruct e as [b v irt0|t ok|b valid]; cbn [NodeModel.step ok_event] in *.
    - subst irt0. apply handle_block_cases in H. destruct H as [W|W D I|W D I|W D]; [now left| | |discriminate].
      + left. unfold block_ids. cbn [rollback ns_blocks]. now rewrite Q2.
      + right. exists (ab_id b). split; [apply adopt_ids|].
        apply wanted_true in W as (E1 & _). split; [now apply has_block_false|].
        destruct (_ && _); [now right|now left].
    - left. apply handle_tx_inv in H as [(-> & ->) | (_ & _ & _ & _ & -> & ->)]; split; reflexivity.
    - rewrite handle_mined_eq in H. destruct valid; injection H as <- <-; [right|now left].
      exists (ab_id b). split; [apply adopt_ids|]. split; [apply has_block_false; auto|now right].
  Qed.

  Lemma run_ind (I : nstate -> Prop) :
    (forall s e s' o, I s -> ok_event s e -> step s e = (s', o) -> I s') ->
    forall es s0 s o, I s0 -> ok_run s0 es -> run s0 es = (s, o) -> I s.
  Proof.
    intros Hstep. induction es as [|e r IH]; cbn [NodeModel.run ok_run]; intros s0 s o H0 Hok H.
    - now injection H as <- _.
    - destruct Hok as [Hok1 Hok2]. destruct (step s0 e) as [s1 o1] eqn:Hs. destruct (run s1 r) as [s2 o2] eqn:Hr.
      injection H as <- _. eapply IH; [eapply Hstep; eassumption|exact Hok2|exact Hr].
  Qed.

  Theorem invariants_run s0 es s o :
    Quiescent s0 -> PoolInv s0 -> ok_run s0 es -> run s0 es = (s, o) -> Quiescent s /\ PoolInv s.
  Proof.
    intros Q HP. apply (run_ind (fun s => Quiescent s /\ PoolInv s)); [|now split].
    intros s1 e s' o' [Q1 HP1] Hok1 Hs. split; [eapply quiescent_step|eapply pool_inv_step_strong]; eassumption.
  Qed.

  (* Every relay of an id is paid for by a new occurrence of that id among the served blocks: as multisets, the ids
     served at the start together with the ids relayed during the run are contained in the ids served at the end. *)
  Theorem run_relay_count es : forall s0 s o,
    Quiescent s0 -> ok_run s0 es -> run s0 es = (s, o) ->
    forall i, (count_occ N.eq_dec (relayed_blocks o) i + count_occ N.eq_dec (block_ids s0) i
               <= count_occ N.eq_dec (block_ids s) i)%nat.
  Proof.
    induction es as [|e r IH]; cbn [NodeModel.run ok_run]; intros s0 s o Q Hok H i.
    - injection H as <- <-. apply le_n.
    - destruct Hok as [Hok1 Hok2]. destruct (step s0 e) as [s1 o1] eqn:Hs. destruct (run s1 r) as [s2 o2] eqn:Hr.
      injection H as <- <-.
      specialize (IH _ _ _ (quiescent_step _ _ _ _ Q Hok1 Hs) Hok2 Hr i).
      rewrite relayed_blocks_app, count_occ_app.
      destruct (step_relay _ _ _ _ Q Hok1 Hs) as [(E & ->) | (j & E & _ & Ho)]; rewrite E in IH; [exact IH|].
      rewrite count_occ_app in IH. destruct Ho as [-> | ->]; cbn [count_occ] in *; destruct (N.eq_dec j i); lia.
  Qed.

  (* C09, C10: each block is relayed at most once.  The pool plays no role (no PoolInv, no conflict_sym). *)
  Theorem relay_at_most_once_strong s0 es s o :
    Quiescent s0 -> NoDup (block_ids s0) -> ok_run s0 es -> run s0 es = (s, o) ->
    (forall i, (count_occ N.eq_dec (relayed_blocks o) i <= 1)%nat) /\
    (forall i, In i (relayed_blocks o) -> ~ In i (block_ids s0) /\ In i (block_ids s)) /\
    Quiescent s /\ NoDup (block_ids s) /\ incl (block_ids s0) (block_ids s).
  Proof.
    intros Q ND Hok H.
    assert (Quiescent s /\ NoDup (block_ids s)) as [Q' ND'].
    { revert H. apply (run_ind (fun s => Quiescent s /\ NoDup (block_ids s))); [|now split|exact Hok].
      intros s1 e s' o' [Q1 ND1] Hok1 Hs. split; [eapply quiescent_step; eassumption|].
      destruct (step_relay _ _ _ _ Q1 Hok1 Hs) as [(-> & _) | (j & -> & Hj & _)]; [assumption|now apply NoDup_snoc]. }
    pose proof (run_relay_count _ _ _ _ Q Hok H) as C.
    pose proof (proj1 (NoDup_count_occ N.eq_dec _) ND') as U.
    (* the rest is arithmetic on C i and U i, membership being a positive count *)
    refine (conj _ (conj _ (conj Q' (conj ND' _)))); intros i; specialize (C i); specialize (U i).
    - lia.
    - intros Hi. apply (count_occ_In N.eq_dec) in Hi.
      rewrite (count_occ_not_In N.eq_dec), (count_occ_In N.eq_dec). lia.
    - intros Hi. apply (count_occ_In N.eq_dec) in Hi. apply (count_occ_In N.eq_dec). lia.
  Qed.

  (* the form C09 and C10 state, PoolInv carried along *)
  Theorem relay_at_most_once s0 es s o :
    Quiescent s0 -> PoolInv s0 -> NoDup (block_ids s0) -> ok_run s0 es -> run s0 es = (s, o) ->
    (forall i, (count_occ N.eq_dec (relayed_blocks o) i <= 1)%nat) /\
    (forall i, In i (relayed_blocks o) -> ~ In i (block_ids s0) /\ In i (block_ids s)) /\
    Quiescent s /\ PoolInv s /\ NoDup (block_ids s) /\ incl (block_ids s0) (block_ids s).
  Proof.
    intros Q HP ND Hok H.
    destruct (relay_at_most_once_strong _ _ _ _ Q ND Hok H) as (H1 & H2 & H3 & H4 & H5).
    destruct (invariants_run _ _ _ _ Q HP Hok H) as [_ HP']. auto 10.
  Qed.

  (* Forall live suffices when the run contains no successfully mined block *)
  Lemma ok_run_of_live es : forall s0,
    Forall live es -> (forall b, ~ In (EMined b true) es) -> ok_run s0 es.
  Proof.
    induction es as [|e r IH]; intros s0 Hl Hm; cbn [ok_run]; [exact I|].
    apply Forall_cons_iff in Hl as [Hl1 Hl2]. split.
    - destruct e as [b v irt0|t ok|b valid]; cbn [ok_event live] in *; auto.
      intros ->. exfalso. apply (Hm b). now left.
    - apply IH; [assumption|]. intros b Hb. apply (Hm b). now right.
  Qed.

  Corollary relay_at_most_once_live s0 es s o :
    Quiescent s0 -> NoDup (block_ids s0) ->
    Forall live es -> (forall b, ~ In (EMined b true) es) -> run s0 es = (s, o) ->
    forall i, (count_occ N.eq_dec (relayed_blocks o) i <= 1)%nat.
  Proof.
    intros Q ND Hl Hm H. eapply relay_at_most_once_strong; try eassumption. now apply ok_run_of_live.
  Qed.

End NodeProofs.

(* Non-vacuity: a state that meets the hypotheses of the theorems above, and runs from it. *)
Definition ex_valid (h t : N) : bool := N.even (h + t).
Definition ex_conflict (a b : N) : bool := false.
Definition ex_s0 : nstate := mkNS [mkAB 0 0 0] 0 [mkAB 0 0 0] 0 [] [] [0].
Definition ex_b1 : ablock := mkAB 1 0 1.
Definition ex_ok : bverdict := mkBV true true true.

Example ex_s0_ok : Quiescent ex_s0 /\ PoolInv ex_valid ex_conflict ex_s0 /\ NoDup (block_ids ex_s0).
Proof.
  split; [repeat split|]. split.
  - repeat split; constructor.
  - cbn. constructor; [intros []|constructor].
Qed.

(* a block accepted and relayed once, the duplicate ignored, a transaction admitted and relayed *)
Example ex_run :
  run 10 ex_valid ex_conflict ex_s0 [EBlock ex_b1 ex_ok true; EBlock ex_b1 ex_ok true; ETx 3 true]
  = (mkNS [mkAB 0 0 0; ex_b1] 1 [mkAB 0 0 0; ex_b1] 1 [3] [] [0; 1], [ORelayBlock 1; ORelayTx 3]).
Proof. vm_compute. reflexivity. Qed.

Example ex_run_ok :
  ok_run 10 ex_valid ex_conflict ex_s0 [EBlock ex_b1 ex_ok true; EBlock ex_b1 ex_ok true; ETx 3 true].
Proof. cbn. auto. Qed.

(* eviction: tx 2 is valid at head 0, the new head 1 makes it invalid; a rule-violating block leaves no trace;
   a conflicting-free second tx 5 valid at head 1 is admitted afterwards *)
Example ex_run_evict :
  run 10 ex_valid ex_conflict ex_s0
      [ETx 2 true; EBlock (mkAB 7 0 1) (mkBV true true false) true; EBlock ex_b1 ex_ok true; ETx 5 true; ETx 5 true]
  = (mkNS [mkAB 0 0 0; ex_b1] 1 [mkAB 0 0 0; ex_b1] 1 [5] [] [0; 1], [ORelayTx 2; ORelayBlock 1; ORelayTx 5]).
Proof. vm_compute. reflexivity. Qed.

(* a block on a side branch that does not become the head is stored but not relayed *)
Example ex_fork_not_relayed :
  run 10 ex_valid ex_conflict ex_s0 [EBlock ex_b1 ex_ok true; EBlock (mkAB 2 0 1) ex_ok true]
  = (mkNS [mkAB 0 0 0; ex_b1; mkAB 2 0 1] 1 [mkAB 0 0 0; ex_b1; mkAB 2 0 1] 1 [] [] [0; 1; 2], [ORelayBlock 1]).
Proof. vm_compute. reflexivity. Qed.

(* Forall live alone is not enough for "at most once": the miner's handler does not dedupe *)
Theorem relay_at_most_once_live_only_refuted :
  exists es s o, Forall live es /\ run 10 ex_valid ex_conflict ex_s0 es = (s, o) /\
                 count_occ N.eq_dec (relayed_blocks o) 1 = 2%nat.
Proof.
  exists [EMined ex_b1 true; EMined ex_b1 true]. eexists. eexists.
  split; [repeat constructor|]. split; [vm_compute; reflexivity|]. vm_compute. reflexivity.
Qed.

(* without Quiescent, C09_only_valid_enter fails: a rollback re-serves ns_valid_blocks *)
Theorem relay_only_valid_enter_without_quiescent_refuted :
  exists s b v s' o i,
    handle_block 10 ex_valid s b v true = (s', o) /\ In i (block_ids s') /\
    ~ (In i (block_ids s) \/
       (i = ab_id b /\ bv_itself v = true /\ bv_apply v = true /\ (true = true -> bv_instate v = true))).
Proof.
  exists (mkNS [mkAB 0 0 0] 0 [mkAB 0 0 0; mkAB 9 0 1] 9 [] [] [0]), ex_b1, (mkBV true true false).
  eexists. eexists. exists 9.
  split; [vm_compute; reflexivity|]. split; [cbn; auto|].
  intros [[F|[]]|(F & _)]; discriminate.
Qed.

