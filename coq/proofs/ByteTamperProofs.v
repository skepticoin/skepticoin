(* Byte-level tamper evidence of encoded blocks.

   TamperProofs.v works on VALUES: two acceptable blocks that agree on two of the three components (summary,
   evidence, transaction list) are equal.  This file lifts that to the BYTES of an encoded block.  The encoding of a
   well-formed block b has the fixed layout (with_regions_self)

       enc_block b = [0] ++ V ++ S ++ E ++ T
         [0]  version byte                                                   (position 0)
         V    = vlq_enc (b_height b)     variable-length height prefix       (vl bytes, vl >= 1)
         S    = sum_fixed (summary)      prev|merkle|time|target|nonce       (104 bytes: 32+32+4+32+4)
         E    = enc_evidence (evidence)  summary_hash|chain_sample|block_hash (96 bytes: 32+32+32)
         T    = enc_list enc_tx (txs)    VLQ count and the transactions      (everything from byte hl = 1+vl+200 on)

   The idea.  dec_block accepts nothing but encodings (canonicity), and the regions of an encoding are cut off in one
   way only: V because VLQ-shaped strings (all bytes but the last carry the continuation bit) are a prefix code, S and
   E because of their widths.  So a string [0] ++ V' ++ S' ++ E' ++ T' with V' VLQ-shaped and S', E' of the right
   widths decodes, if at all, to a block whose regions are V', S', E' and a prefix of T' (dec_block_regions); each
   component of a block is determined by its regions (regions_components).  An alteration confined to the regions of
   one component therefore yields a block that agrees with b on the other two, and the value-level theorems apply.

   What is proved (b accepted above the checkpoint horizon, bs' the altered string):

   A. REGION theorems - any alteration whatsoever confined to one region:
      - tx_region_alteration / tx_region_tamper_rejected: bs' agrees with enc_block b on the first hl bytes (every bit
        flip, replacement, insertion, deletion at or beyond byte hl).  If bs' decodes, the header is unchanged; if it
        decodes completely, the block is not accepted.  Premise: blake injective.
      - evidence_region_tamper_rejected: E replaced by any other 96 bytes.  NO cryptographic premise (the evidence is
        a function of summary, transactions and state).
      - summary_region_tamper_rejected: S replaced by any other 104 bytes.  Premise: scrypt injective.
      - height_prefix_tamper_rejected: V replaced by ANY VLQ-shaped string V', of any length.  bs' either does not
        decode (non-canonical VLQ) or decodes to a block that is not accepted.  Premise: scrypt injective.
      - with_regions_decodes: the strings the last three speak of do decode when V' is an encoding.
      - version_byte_altered_undecodable: the version byte replaced by anything else: does not decode.
   B. TRUNCATION: block_truncation_undecodable: no proper prefix of enc_block b decodes (no premise at all).
   C. SINGLE BYTE: single_byte_agree / single_byte_tamper_rejected (every position i, every new byte value x <> old,
      provided that inside the height prefix the continuation bit is kept): the altered string does not decode
      completely to an accepted block.  Premises: scrypt and blake injective.  flip_bit_facts makes a bit flip (every
      bit except bit 7 of the vl bytes of the height prefix) an instance: Properties_C06.C06_bit_flip.

   The hash functions are universally quantified arguments of each theorem and the injectivity idealisations are
   explicit premises of exactly the theorems that need them.  Nothing is postulated.

   WHAT REMAINS UNCOVERED AT THE BYTE LEVEL (precisely):
   1. A replacement inside the height prefix V that changes a continuation bit (bit 7): setting it on the last byte
      of V makes the VLQ swallow bytes of s_prev; clearing it on an earlier byte ends the VLQ early.  Either way every
      later field boundary moves, so the decoded block (if any) may differ from b in summary, evidence AND
      transaction list at once; no injectivity argument applies (see the header comment of TamperProofs.v).  These
      are exactly vl positions x 1 bit per block (vl = 1..5 for any realistic height), and, for byte replacement,
      the 128 values per prefix byte that change bit 7.
   2. Alterations touching SEVERAL regions at once (e.g. a byte inserted or deleted inside V, S or E, which shifts
      the later regions; or two replacements in different regions).  Insertions/deletions are covered only inside
      T (the tx_region theorems) and, in the sense of "another VLQ-shaped prefix of any length", inside V.
   3. Strings that decode with a NON-EMPTY rest: the rejection theorems speak about complete decodes
      (dec_block bs' = Some (b', [])), which is what the callers of the deserialiser require.  The decode-level facts
      (dec_block_regions, one_component_agree, tx_region_alteration, single_byte_agree) hold for any rest.
   4. As in TamperProofs.v: nothing is claimed at or below the checkpoint horizon (FV), and the altered block is
      judged against the SAME state s.  In every covered case except the height prefix the altered block has the
      same height, so FV for it is derived; in the height-prefix case FV of the altered block is a premise
      (FV P b' in height_prefix_tamper_rejected, b_height b' <> b_height b -> FV P b' in the single-byte theorems). *)
From stdpp Require Import gmap.
From Coq Require Import NArith ZArith Lia.
From SkV Require Import Bytes Vlq Codec ChainState Pow Validate ChainDefs VlqProofs
     CodecProofs TamperProofs.
Open Scope N_scope.

Fixpoint set_nth {A} (i : nat) (x : A) (l : list A) {struct l} : list A :=
  match l with
  | [] => []
  | y :: r => match i with O => x :: r | S j => y :: set_nth j x r end
  end.

(* set_nth is stdpp's list insert; its lemmas are taken from there *)
Lemma set_nth_insert {A} i (x : A) l : set_nth i x l = <[i:=x]> l.
Proof. revert i; induction l as [|y l IH]; intros [|i]; cbn; [done..|]. f_equal. apply IH. Qed.

Lemma set_nth_wf i x l : x < 256 -> bytes_wf l -> bytes_wf (set_nth i x l).
Proof. intros Hx Hl. rewrite set_nth_insert. apply Forall_insert; done. Qed.

Lemma set_nth_ne {A} i (x d : A) l : (i < length l)%nat -> x <> nth i l d -> set_nth i x l <> l.
Proof.
  intros Hi Hx E. apply Hx. rewrite <- E, set_nth_insert, nth_lookup, list_lookup_insert; done.
Qed.

Lemma skipn_app_exact {A} (a c : list A) : skipn (length a) (a ++ c) = c.
Proof. apply drop_app. Qed.

Lemma split_len {A} n m (l : list A) :
  length l = (n + m)%nat -> exists a c, l = a ++ c /\ length a = n /\ length c = m.
Proof.
  intros H. exists (firstn n l), (skipn n l). rewrite firstn_skipn, firstn_length, skipn_length. split; [done|lia].
Qed.

Lemma insert_app_cases {A} j (x : A) (a r : list A) :
  ((j < length a)%nat /\ <[j:=x]> (a ++ r) = <[j:=x]> a ++ r) \/ (exists k, <[j:=x]> (a ++ r) = a ++ <[k:=x]> r).
Proof.
  destruct (Nat.lt_ge_cases j (length a)) as [H|H]; [left; split; [done|apply insert_app_l, H]|right].
  eexists. apply insert_app_r_alt, H.
Qed.

(* xor with p < 2^n leaves the bits from n on alone, so it does not move a number across 2^n *)
Lemma lxor_lt_pow2 a p n : p < 2 ^ n -> (N.lxor a p < 2 ^ n <-> a < 2 ^ n).
Proof.
  assert (Hs : forall c, c < 2 ^ n <-> N.shiftr c n = 0).
  { intros c. rewrite N.shiftr_div_pow2. symmetry. apply N.div_small_iff, N.pow_nonzero. done. }
  intros Hp. apply Hs in Hp. rewrite !Hs, N.shiftr_lxor, Hp, N.lxor_0_r. done.
Qed.

Lemma lxor_ne a p : p <> 0 -> N.lxor a p <> a.
Proof.
  intros Hp E. apply Hp. apply (f_equal (N.lxor a)) in E.
  rewrite <- N.lxor_assoc, N.lxor_nilpotent, N.lxor_0_l in E. done.
Qed.

(* the fixed-width fields of the summary (everything after the variable-length height) *)
Definition sum_fixed (s : summary) : bytes :=
  s_prev s ++ s_merkle s ++ be_enc 4 (s_time s) ++ s_target s ++ be_enc 4 (s_nonce s).

(* hl: the number of bytes the header occupies;  vl: the number of bytes of the height prefix *)
Definition header_len (b : block) : nat := length (enc_header (b_header b)).
Definition height_len (b : block) : nat := length (vlq_enc (b_height b)).

Definition with_regions (V S E T : bytes) : bytes := [0] ++ V ++ S ++ E ++ T.

(* the widths of S (32+32+4+32+4) and E (32+32+32); named, so that the unary numerals stay out of the proof terms *)
Definition fixed_len : nat := 104.
Definition evidence_len : nat := 96.

Lemma enc_summary_split s : enc_summary s = vlq_enc (s_height s) ++ sum_fixed s.
Proof. done. Qed.

Lemma with_regions_self b :
  enc_block b = with_regions (vlq_enc (b_height b)) (sum_fixed (h_summary (b_header b)))
                             (enc_evidence (h_evidence (b_header b))) (enc_list enc_tx (b_txs b)).
Proof. unfold enc_block, enc_header, with_regions. rewrite enc_summary_split, <- !app_assoc. done. Qed.

Lemma with_regions_wf V S E T :
  bytes_wf V -> bytes_wf S -> bytes_wf E -> bytes_wf T -> bytes_wf (with_regions V S E T).
Proof.
  intros WV WS WE WT. unfold with_regions. constructor; [lia|].
  apply Forall_app_2; [done|]. apply Forall_app_2; [done|]. apply Forall_app_2; done.
Qed.

Lemma sum_fixed_length s : wf_summary s = true -> length (sum_fixed s) = fixed_len.
Proof.
  unfold wf_summary, sum_fixed. intros H. split_andb.
  rewrite !app_length, !be_enc_length. repeat erewrite len_is_length by eassumption. reflexivity.
Qed.

Lemma block_region_facts b : wf_block b = true ->
  length (sum_fixed (h_summary (b_header b))) = fixed_len /\ bytes_wf (sum_fixed (h_summary (b_header b))) /\
  length (enc_evidence (h_evidence (b_header b))) = evidence_len /\ bytes_wf (enc_evidence (h_evidence (b_header b))) /\
  bytes_wf (enc_list enc_tx (b_txs b)).
Proof.
  intros Hwf. apply wf_block_parts in Hwf as (Ws & Wev & _ & Wtx).
  split; [apply sum_fixed_length, Ws|]. split.
  { pose proof (ok_enc summary_codec _ Ws) as W. rewrite enc_summary_split in W. apply bytes_wf_app in W. tauto. }
  split; [apply enc_evidence_length, Wev|]. split; [apply (ok_enc evidence_codec), Wev|].
  apply (ok_enc txs_codec), Wtx.
Qed.

Theorem header_len_eq b : wf_block b = true -> header_len b = (1 + height_len b + 104 + 96)%nat.
Proof.
  intros Hwf. destruct (block_region_facts b Hwf) as (HS & _ & HE & _).
  unfold header_len, height_len, b_height, enc_header. rewrite enc_summary_split, !app_length, HS, HE. done.
Qed.

Lemma enc_block_length b : length (enc_block b) = (header_len b + length (enc_list enc_tx (b_txs b)))%nat.
Proof. unfold enc_block, header_len. apply app_length. Qed.

(* all bytes but the last carry the continuation bit, the last does not *)
Definition vlq_shaped (V : bytes) : Prop :=
  exists body last, V = body ++ [last] /\ Forall (fun c => 128 <= c) body /\ last < 128.

Lemma digits_false_ge f : forall i, Forall (fun c => 128 <= c) (digits f i false).
Proof.
  induction f as [|f IH]; intros i; cbn [digits]; [constructor|].
  apply Forall_app. split; [apply IH|]. constructor; [apply N.le_add_l|constructor].
Qed.

Lemma vlq_enc_shaped h : vlq_shaped (vlq_enc h).
Proof.
  unfold vlq_enc, needed. rewrite N.add_1_r, N2Nat.inj_succ. cbn [digits].
  exists (digits (N.to_nat (N.size h / 7)) (h / 128) false), (h mod 128 + 0).
  split; [done|]. split; [apply digits_false_ge|]. rewrite N.add_0_r. apply N.mod_lt. done.
Qed.

Lemma height_len_pos b : (0 < height_len b)%nat.
Proof.
  unfold height_len. rewrite vlq_enc_length. apply needed_pos.
Qed.

(* VLQ-shaped strings form a prefix code: where one ends is determined by its own bytes *)
Lemma vlq_shaped_prefix_free V V' R R' :
  vlq_shaped V -> vlq_shaped V' -> V ++ R = V' ++ R' -> V = V' /\ R = R'.
Proof.
  intros (body & last & -> & Hb & Hl) (body' & last' & -> & Hb' & Hl').
  revert body' Hb'. induction Hb as [|c body Hc Hb IH]; intros body' Hb'; destruct Hb' as [|c' body' Hc' Hb'];
    cbn; intros [= -> E]; try lia.
  - done.
  - destruct (IH body' Hb' E) as [-> ->]. done.
Qed.

Lemma insert_shaped (V : list N) j x :
  vlq_shaped V -> (j < length V)%nat -> (x <? 128) = (nth j V 0 <? 128) -> vlq_shaped (<[j:=x]> V).
Proof.
  intros (body & last & -> & Hb & Hl) Hj Hx. rewrite app_length in Hj. cbn [length] in Hj.
  destruct (Nat.lt_ge_cases j (length body)) as [Hlt|Hge].
  - rewrite app_nth1 in Hx by done. rewrite insert_app_l by done.
    exists (<[j:=x]> body), last. split; [done|]. split; [|done].
    apply Forall_insert; [done|]. apply N.ltb_ge. rewrite Hx. apply N.ltb_ge, (Forall_nth _ 0 body), Hlt. done.
  - assert (j = length body) as -> by lia.
    rewrite app_nth2, Nat.sub_diag in Hx by done. cbn [nth] in Hx.
    rewrite insert_app_r_alt, Nat.sub_diag by done.
    exists body, x. split; [done|]. split; [done|]. apply N.ltb_lt. rewrite Hx. apply N.ltb_lt, Hl.
Qed.

Theorem dec_block_regions V S E T b' r' :
  vlq_shaped V -> length S = fixed_len -> length E = evidence_len -> bytes_wf (with_regions V S E T) ->
  dec_block (with_regions V S E T) = Some (b', r') ->
  wf_block b' = true /\ V = vlq_enc (b_height b') /\ S = sum_fixed (h_summary (b_header b')) /\
  E = enc_evidence (h_evidence (b_header b')) /\ T = enc_list enc_tx (b_txs b') ++ r'.
Proof.
  intros HV HS HE Wbs Hd.
  destruct (ok_inv block_codec _ _ _ Wbs Hd) as (Hc & Wb' & _). split; [done|].
  destruct (block_region_facts b' Wb') as (HS' & _ & HE' & _).
  rewrite with_regions_self in Hc. unfold with_regions in Hc. rewrite <- !app_assoc in Hc.
  injection Hc as Hc.
  apply vlq_shaped_prefix_free in Hc as [-> Hc]; [|done|apply vlq_enc_shaped].
  apply app_inj_1 in Hc as [-> Hc]; [|congruence].
  apply app_inj_1 in Hc as [-> ->]; [|congruence]. done.
Qed.

Lemma regions_components b b' :
  wf_block b = true -> wf_block b' = true ->
  (vlq_enc (b_height b) = vlq_enc (b_height b') ->
   sum_fixed (h_summary (b_header b)) = sum_fixed (h_summary (b_header b')) ->
   h_summary (b_header b) = h_summary (b_header b')) /\
  (enc_evidence (h_evidence (b_header b)) = enc_evidence (h_evidence (b_header b')) ->
   h_evidence (b_header b) = h_evidence (b_header b')) /\
  (forall r', enc_list enc_tx (b_txs b) = enc_list enc_tx (b_txs b') ++ r' -> b_txs b = b_txs b' /\ r' = []).
Proof.
  intros Hwf Hwf'.
  pose proof (wf_block_parts b Hwf) as (Ws & Wev & _ & Wtx).
  pose proof (wf_block_parts b' Hwf') as (Ws' & Wev' & _ & Wtx').
  split; [|split].
  - intros EV ES. apply (ok_inj summary_codec); try done. rewrite !enc_summary_split. unfold b_height in EV. congruence.
  - apply (ok_inj evidence_codec); done.
  - intros r' ET. rewrite <- (app_nil_r (enc_list enc_tx (b_txs b))) in ET.
    apply (ok_prefix_free txs_codec) in ET as [-> <-]; done.
Qed.

Lemma FV_same_height P b b' : b_height b' = b_height b -> FV P b -> FV P b'.
Proof. unfold FV. intros ->. done. Qed.

(* every 104-byte string is the fixed part of a well-formed summary, every 96-byte string an evidence; so every
   string of the block layout with a canonical height prefix and a well-formed transaction list decodes: the
   hypotheses of the region theorems below can be met by any replacement of S or E *)
Lemma summary_fixed_surj h S :
  length S = fixed_len -> bytes_wf S -> exists sm, wf_summary sm = true /\ s_height sm = h /\ sum_fixed sm = S.
Proof.
  intros HL Hwf.
  destruct (split_len 32 72 S HL) as (p & S1 & -> & Hp & HL1).
  destruct (split_len 32 40 S1 HL1) as (m & S2 & -> & Hm & HL2).
  destruct (split_len 4 36 S2 HL2) as (t & S3 & -> & Ht & HL3).
  destruct (split_len 32 4 S3 HL3) as (tg & nn & -> & Htg & Hnn).
  apply bytes_wf_app in Hwf as [Wp Hwf]. apply bytes_wf_app in Hwf as [Wm Hwf].
  apply bytes_wf_app in Hwf as [Wt Hwf]. apply bytes_wf_app in Hwf as [Wtg Wnn].
  exists (mkSummary h p m (be_dec t) tg (be_dec nn)). split; [|split; [done|]].
  - pose proof (be_dec_bound t Wt) as Bt. rewrite Ht, pow256_4 in Bt. apply N.ltb_lt in Bt.
    pose proof (be_dec_bound nn Wnn) as Bn. rewrite Hnn, pow256_4 in Bn. apply N.ltb_lt in Bn.
    unfold wf_summary; cbn [s_prev s_merkle s_time s_target s_nonce].
    rewrite !(proj2 (len_is_iff 32 _)), Bt, Bn by (split; assumption). done.
  - unfold sum_fixed; cbn [s_prev s_merkle s_time s_target s_nonce].
    rewrite (be_enc_dec_w 4 t), (be_enc_dec_w 4 nn); done.
Qed.

Lemma evidence_surj E :
  length E = evidence_len -> bytes_wf E -> exists ev, wf_evidence ev = true /\ enc_evidence ev = E.
Proof.
  intros HL Hwf.
  destruct (split_len 32 64 E HL) as (a & E1 & -> & Ha & HL1).
  destruct (split_len 32 32 E1 HL1) as (c & d & -> & Hc & Hd).
  apply bytes_wf_app in Hwf as [Wa Hwf]. apply bytes_wf_app in Hwf as [Wc Wd].
  exists (mkEvidence a c d). split; [|done].
  unfold wf_evidence; cbn [ev_summary_hash ev_chain_sample ev_block_hash].
  rewrite !(proj2 (len_is_iff 32 _)) by (split; assumption). done.
Qed.

Theorem with_regions_decodes h S E txs :
  length S = fixed_len -> bytes_wf S -> length E = evidence_len -> bytes_wf E -> forallb wf_tx txs = true ->
  exists b', dec_block (with_regions (vlq_enc h) S E (enc_list enc_tx txs)) = Some (b', []).
Proof.
  intros HS WS HE WE Wtx.
  destruct (summary_fixed_surj h S HS WS) as (sm & Wsm & <- & <-).
  destruct (evidence_surj E HE WE) as (ev & Wev & <-).
  exists (mkBlock (mkHeader sm ev) txs).
  rewrite <- (ok_rt_nil block_codec); [rewrite with_regions_self; done|].
  unfold wf_block, wf_header; cbn [b_header b_txs h_summary h_evidence]. rewrite Wsm, Wev, Wtx. done.
Qed.

(* the header decoder consumes exactly the first hl bytes; no premise on the bytes after them *)
Theorem tx_region_alteration b bs' b' r' :
  wf_block b = true -> firstn (header_len b) bs' = firstn (header_len b) (enc_block b) ->
  dec_block bs' = Some (b', r') -> b_header b' = b_header b.
Proof.
  intros Hwf Hpre Hd. apply wf_block_parts in Hwf as (_ & _ & Whd & _).
  unfold header_len, enc_block in Hpre. rewrite list.take_app in Hpre.
  rewrite <- (firstn_skipn (length (enc_header (b_header b))) bs'), Hpre in Hd.
  unfold dec_block in Hd. rewrite (ok_rt header_codec _ _ Whd) in Hd.
  destruct (dec_list dec_tx _) as [[ts r1]|]; [|discriminate].
  injection Hd as <- _. done.
Qed.

Theorem tx_region_tamper_rejected
    (sha scrypt blake : bytes -> bytes) (verify : bytes -> bytes -> bytes -> N) (P : cparams)
    (blake_inj : forall a b : bytes, blake a = blake b -> a = b)
    (s : cstate) (b b' : block) (bs' : bytes) (now now' : N) (s1 : cstate) :
  wf_block b = true -> add_block sha scrypt blake verify P s b now = Ok s1 -> FV P b ->
  firstn (header_len b) bs' = firstn (header_len b) (enc_block b) -> bytes_wf bs' -> bs' <> enc_block b ->
  dec_block bs' = Some (b', []) ->
  forall s2, add_block sha scrypt blake verify P s b' now' <> Ok s2.
Proof.
  intros Hwf Hacc Hfv Hpre Wbs' Hne Hd s2 Hacc'.
  pose proof (tx_region_alteration _ _ _ _ Hwf Hpre Hd) as Hh.
  apply Hne. rewrite <- (ok_canonical block_codec _ _ _ Wbs' Hd), app_nil_r. f_equal. symmetry.
  apply (same_summary_and_evidence_same_txs_any_state sha scrypt blake verify P blake_inj s s b b' now now' s1 s2);
    try done.
  - apply (FV_same_height P b b'); [unfold b_height; rewrite Hh|]; done.
  - apply (ok_wf block_codec _ _ _ Wbs' Hd).
Qed.

(* truncation: dec_block reads a prefix code, so no proper prefix of an encoded block decodes *)
Theorem block_truncation_undecodable b n :
  wf_block b = true -> (n < length (enc_block b))%nat -> dec_block (firstn n (enc_block b)) = None.
Proof. apply (ok_truncated block_codec). Qed.

Theorem version_byte_altered_undecodable x r : x <> 0 -> dec_block (x :: r) = None.
Proof. intros Hx. destruct x as [|p]; [done|]. reflexivity. Qed.

(* In each case the region lemma says what the altered string decodes to, the two unaltered components are those
   of b, the value-level theorem then forces the decoded block to be b, and so the altered region to be b's. *)
Theorem evidence_region_tamper_rejected
    (sha scrypt blake : bytes -> bytes) (verify : bytes -> bytes -> bytes -> N) (P : cparams)
    (s : cstate) (b b' : block) (E' r' : bytes) (now now' : N) (s1 : cstate) :
  wf_block b = true -> add_block sha scrypt blake verify P s b now = Ok s1 -> FV P b ->
  length E' = 96%nat -> bytes_wf E' -> E' <> enc_evidence (h_evidence (b_header b)) ->
  dec_block (with_regions (vlq_enc (b_height b)) (sum_fixed (h_summary (b_header b))) E'
                          (enc_list enc_tx (b_txs b))) = Some (b', r') ->
  r' = [] /\ forall s2, add_block sha scrypt blake verify P s b' now' <> Ok s2.
Proof.
  intros Hwf Hacc Hfv HE WE Hne Hd.
  destruct (block_region_facts b Hwf) as (HS & WS & _ & _ & WT).
  apply dec_block_regions in Hd as (Hwf' & HV' & HS' & -> & HT');
    [|apply vlq_enc_shaped|done..|apply with_regions_wf; try done; apply vlq_enc_wf].
  destruct (regions_components b b' Hwf Hwf') as (Hsm & _ & Htx).
  specialize (Hsm HV' HS'). destruct (Htx r' HT') as [Htx' ->]. split; [done|].
  intros s2 Hacc'. apply Hne. replace b' with b; [done|].
  apply (evidence_is_function sha scrypt blake verify P s b b' now now' s1 s2); try done.
  apply (FV_same_height P b b'); [unfold b_height; rewrite Hsm|]; done.
Qed.

Theorem summary_region_tamper_rejected
    (sha scrypt blake : bytes -> bytes) (verify : bytes -> bytes -> bytes -> N) (P : cparams)
    (scrypt_inj : forall a b : bytes, scrypt a = scrypt b -> a = b)
    (s : cstate) (b b' : block) (S' r' : bytes) (now now' : N) (s1 : cstate) :
  wf_block b = true -> add_block sha scrypt blake verify P s b now = Ok s1 -> FV P b ->
  length S' = 104%nat -> bytes_wf S' -> S' <> sum_fixed (h_summary (b_header b)) ->
  dec_block (with_regions (vlq_enc (b_height b)) S' (enc_evidence (h_evidence (b_header b)))
                          (enc_list enc_tx (b_txs b))) = Some (b', r') ->
  r' = [] /\ forall s2, add_block sha scrypt blake verify P s b' now' <> Ok s2.
Proof.
  intros Hwf Hacc Hfv HS WS Hne Hd.
  destruct (block_region_facts b Hwf) as (_ & _ & HE & WE & WT).
  apply dec_block_regions in Hd as (Hwf' & HV' & -> & HE' & HT');
    [|apply vlq_enc_shaped|done..|apply with_regions_wf; try done; apply vlq_enc_wf].
  destruct (regions_components b b' Hwf Hwf') as (_ & Hev & Htx).
  specialize (Hev HE'). destruct (Htx r' HT') as [Htx' ->]. split; [done|].
  intros s2 Hacc'. apply Hne. replace b' with b; [done|].
  apply (same_evidence_and_txs_same_summary_any_state sha scrypt blake verify P scrypt_inj s s b b' now now' s1 s2);
    try done.
  apply (FV_same_height P b b'); [symmetry; apply vlq_enc_inj|]; done.
Qed.

Theorem height_prefix_tamper_rejected
    (sha scrypt blake : bytes -> bytes) (verify : bytes -> bytes -> bytes -> N) (P : cparams)
    (scrypt_inj : forall a b : bytes, scrypt a = scrypt b -> a = b)
    (s : cstate) (b b' : block) (V' r' : bytes) (now now' : N) (s1 : cstate) :
  wf_block b = true -> add_block sha scrypt blake verify P s b now = Ok s1 -> FV P b ->
  vlq_shaped V' -> bytes_wf V' -> V' <> vlq_enc (b_height b) ->
  dec_block (with_regions V' (sum_fixed (h_summary (b_header b))) (enc_evidence (h_evidence (b_header b)))
                          (enc_list enc_tx (b_txs b))) = Some (b', r') ->
  FV P b' ->
  r' = [] /\ forall s2, add_block sha scrypt blake verify P s b' now' <> Ok s2.
Proof.
  intros Hwf Hacc Hfv Hsh WV Hne Hd Hfv'.
  destruct (block_region_facts b Hwf) as (HS & WS & HE & WE & WT).
  apply dec_block_regions in Hd as (Hwf' & -> & HS' & HE' & HT'); [|done..|apply with_regions_wf; done].
  destruct (regions_components b b' Hwf Hwf') as (_ & Hev & Htx).
  specialize (Hev HE'). destruct (Htx r' HT') as [Htx' ->]. split; [done|].
  intros s2 Hacc'. apply Hne. replace b' with b; [done|].
  apply (same_evidence_and_txs_same_summary_any_state sha scrypt blake verify P scrypt_inj s s b b' now now' s1 s2);
    done.
Qed.

(* the regions of at most one of the three components differ from those of enc_block b *)
Definition one_component_altered (b : block) (V S E T : bytes) : Prop :=
  let V0 := vlq_enc (b_height b) in let S0 := sum_fixed (h_summary (b_header b)) in
  let E0 := enc_evidence (h_evidence (b_header b)) in let T0 := enc_list enc_tx (b_txs b) in
  (V = V0 /\ S = S0 /\ T = T0) \/ (V = V0 /\ S = S0 /\ E = E0) \/ (E = E0 /\ T = T0).

Theorem one_component_agree b V S E T b' r' :
  wf_block b = true -> vlq_shaped V -> length S = fixed_len -> length E = evidence_len ->
  bytes_wf (with_regions V S E T) -> one_component_altered b V S E T ->
  dec_block (with_regions V S E T) = Some (b', r') -> agree_on_two b b'.
Proof.
  intros Hwf HV HS HE Wbs Halt Hd.
  destruct (dec_block_regions _ _ _ _ _ _ HV HS HE Wbs Hd) as (Hwf' & EV & ES & EE & ET).
  destruct (regions_components b b' Hwf Hwf') as (Hsm & Hev & Htx).
  destruct Halt as [(-> & -> & ->) | [(-> & -> & ->) | (-> & ->)]].
  - left. split; [apply Hsm; done|apply (Htx r'); done].
  - right; left. split; [apply Hsm; done|apply Hev; done].
  - right; right. split; [apply Hev; done|apply (Htx r'); done].
Qed.

Definition in_height_prefix (b : block) (i : nat) : Prop := (1 <= i <= height_len b)%nat.

(* replacing one byte after the version byte, the continuation bit kept inside the height prefix, alters one region
   (not V, if the byte lies beyond the height prefix) and keeps the shape of all four *)
Lemma single_byte_regions b j x :
  wf_block b = true ->
  ((j < height_len b)%nat -> (x <? 128) = (nth j (vlq_enc (b_height b)) 0 <? 128)) ->
  exists V S E T, set_nth (Datatypes.S j) x (enc_block b) = with_regions V S E T /\
    vlq_shaped V /\ length S = fixed_len /\ length E = evidence_len /\ one_component_altered b V S E T /\
    ((height_len b <= j)%nat -> V = vlq_enc (b_height b)).
Proof.
  intros Hwf Hcont. destruct (block_region_facts b Hwf) as (HS & _ & HE & _).
  pose proof (vlq_enc_shaped (b_height b)) as HV.
  rewrite set_nth_insert, with_regions_self.
  set (V0 := vlq_enc (b_height b)) in *. set (S0 := sum_fixed (h_summary (b_header b))) in *.
  set (E0 := enc_evidence (h_evidence (b_header b))) in *. set (T0 := enc_list enc_tx (b_txs b)).
  change (<[Datatypes.S j:=x]> (with_regions V0 S0 E0 T0)) with (0 :: <[j:=x]> (V0 ++ S0 ++ E0 ++ T0)).
  destruct (insert_app_cases j x V0 (S0 ++ E0 ++ T0)) as [[Hj ->]|[k ->]].
  { exists (<[j:=x]> V0), S0, E0, T0. split; [done|]. split; [apply insert_shaped; auto|].
    do 2 (split; [done|]). split; [right; right; done|]. unfold height_len. fold V0. lia. }
  destruct (insert_app_cases k x S0 (E0 ++ T0)) as [[_ ->]|[k' ->]].
  { exists V0, (<[k:=x]> S0), E0, T0. rewrite (insert_length S0). do 4 (split; [done|]).
    split; [right; right; done|done]. }
  destruct (insert_app_cases k' x E0 T0) as [[_ ->]|[k'' ->]].
  - exists V0, S0, (<[k':=x]> E0), T0. rewrite (insert_length E0). do 4 (split; [done|]). split; [left; done|done].
  - exists V0, S0, E0, (<[k'':=x]> T0). do 4 (split; [done|]). split; [right; left; done|done].
Qed.

Theorem single_byte_agree b i x b' r' :
  wf_block b = true -> x < 256 -> x <> nth i (enc_block b) 0 ->
  (in_height_prefix b i -> (x <? 128) = (nth i (enc_block b) 0 <? 128)) ->
  dec_block (set_nth i x (enc_block b)) = Some (b', r') ->
  agree_on_two b b' /\ (~ in_height_prefix b i -> b_height b' = b_height b).
Proof.
  intros Hwf Hx Hne Hcont Hd.
  pose proof (set_nth_wf i x _ Hx (ok_enc block_codec b Hwf)) as Wbs'.
  destruct i as [|j].
  { rewrite with_regions_self in Hd, Hne. unfold with_regions in Hd, Hne. cbn [app set_nth nth] in Hd, Hne.
    rewrite version_byte_altered_undecodable in Hd by done. discriminate. }
  destruct (single_byte_regions b j x Hwf) as (V & S & E & T & Heq & HV & HS & HE & Halt & HVeq).
  { intros Hj. rewrite Hcont by (unfold in_height_prefix; lia).
    rewrite with_regions_self. unfold with_regions. cbn [app nth]. rewrite app_nth1 by done. done. }
  rewrite Heq in Hd, Wbs'. split; [apply (one_component_agree b V S E T b' r'); done|].
  (* beyond the height prefix V is vlq_enc (b_height b) as before, and the decoder reads it as the height of b' *)
  intros Hout. destruct (dec_block_regions V S E T b' r' HV HS HE Wbs' Hd) as (_ & EV & _).
  apply vlq_enc_inj. rewrite <- EV. apply HVeq. unfold in_height_prefix in Hout. lia.
Qed.

Theorem single_byte_tamper_rejected
    (sha scrypt blake : bytes -> bytes) (verify : bytes -> bytes -> bytes -> N) (P : cparams)
    (scrypt_inj : forall a b : bytes, scrypt a = scrypt b -> a = b)
    (blake_inj : forall a b : bytes, blake a = blake b -> a = b)
    (s : cstate) (b b' : block) (i : nat) (x : N) (now now' : N) (s1 : cstate) :
  wf_block b = true -> add_block sha scrypt blake verify P s b now = Ok s1 -> FV P b ->
  (i < length (enc_block b))%nat -> x < 256 -> x <> nth i (enc_block b) 0 ->
  (in_height_prefix b i -> (x <? 128) = (nth i (enc_block b) 0 <? 128)) ->
  dec_block (set_nth i x (enc_block b)) = Some (b', []) ->
  (b_height b' <> b_height b -> FV P b') ->
  forall s2, add_block sha scrypt blake verify P s b' now' <> Ok s2.
Proof.
  intros Hwf Hacc Hfv Hi Hx Hne Hcont Hd Hfv'.
  destruct (single_byte_agree b i x b' [] Hwf Hx Hne Hcont Hd) as [Hag _].
  assert (Hfvb' : FV P b').
  { destruct (N.eq_dec (b_height b') (b_height b)) as [He|He]; [|apply Hfv', He].
    apply (FV_same_height P b b'); done. }
  apply (tampered_bytes_rejected sha scrypt blake verify P scrypt_inj blake_inj s (enc_block b)
           (set_nth i x (enc_block b)) b b' now now' s1); try done.
  - apply (ok_enc block_codec), Hwf.
  - apply set_nth_wf; [done|apply (ok_enc block_codec), Hwf].
  - apply (ok_rt_nil block_codec), Hwf.
  - intros E. symmetry in E. revert E. apply (set_nth_ne i x 0); done.
Qed.

Definition flip_bit (k : N) (v : N) : N := N.lxor v (2 ^ k).

Lemma flip_bit_facts v k : v < 256 -> k < 8 ->
  flip_bit k v < 256 /\ flip_bit k v <> v /\ (k <> 7 -> (flip_bit k v <? 128) = (v <? 128)).
Proof.
  intros Hv Hk. unfold flip_bit. split; [|split].
  - apply (lxor_lt_pow2 v (2 ^ k) 8); [apply N.pow_lt_mono_r|]; done.
  - apply lxor_ne, N.pow_nonzero. done.
  - intros Hk7. apply Bool.eq_iff_eq_true. rewrite !N.ltb_lt.
    apply (lxor_lt_pow2 v (2 ^ k) 7), N.pow_lt_mono_r; lia.
Qed.

Lemma enc_block_byte b i : wf_block b = true -> nth i (enc_block b) 0 < 256.
Proof.
  intros Hwf. destruct (nth_in_or_default i (enc_block b) 0) as [Hin| ->]; [|lia].
  pose proof (ok_enc block_codec b Hwf) as W. unfold bytes_wf in W. rewrite Forall_forall in W.
  apply W, elem_of_list_In, Hin.
Qed.
