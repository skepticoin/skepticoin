(* "Above the checkpoint horizon" read as a POSITION in the chain (the parent's height plus one), not as the height a
   block declares: since an accepted block's height is its parent's plus one on either side of the horizon
   (ValidProofs.accepted_height_is_position, the fix recorded in known_findings.json), every soundness theorem stated
   under FV (declared height above the horizon) also holds under FVpos. *)
From stdpp Require Import gmap.
From Coq Require Import NArith ZArith Lia.
From SkV Require Import Bytes Codec ChainState Pow Validate ChainDefs ValidProofs.
Open Scope N_scope.

Section Position.
  Variable sha : bytes -> bytes.
  Variable scrypt : bytes -> bytes.
  Variable blake : bytes -> bytes.
  Variable verify : bytes -> bytes -> bytes -> N.
  Variable P : cparams.

  Definition FVpos (s : cstate) (b : block) : Prop :=
    exists prev, cs_blocks s !! b_prev b = Some prev /\ (p_hz P < Z.of_N (b_height prev + 1))%Z.

  Theorem accepted_position_is_FV s b now s' :
    add_block sha scrypt blake verify P s b now = Ok s' -> FVpos s b -> FV P b.
  Proof.
    intros (_ & Hok & _)%add_block_ok (prev & Hprev & Hz).
    unfold FV. by rewrite (accepted_height_is_position _ _ _ _ _ _ _ _ Hok Hprev).
  Qed.

  (* conversely a block accepted under FV sits above the horizon *)
  Theorem accepted_FV_is_position s b now s' prev :
    add_block sha scrypt blake verify P s b now = Ok s' -> FV P b -> cs_blocks s !! b_prev b = Some prev ->
    FVpos s b.
  Proof.
    intros (_ & Hok & _)%add_block_ok Hfv Hprev. exists prev. split; [done|].
    by rewrite <- (accepted_height_is_position _ _ _ _ _ _ _ _ Hok Hprev).
  Qed.
End Position.
