(* Observation K (DESIGN 11.10): the "outside bulk download" proviso of C09 is decided by a field the SENDER writes
   (MessageHeader.in_response_to).  In the node model -- as in remote_peer.py handle_block_received -- a delivery whose
   header claims to answer a request is applied with by-itself validation only unless its height is a multiple of
   IBD_VALIDATION_SKIP; whether the node ever sent such a request is not consulted.  So a block that FAILS in-state
   validation enters the served chain state, and the flush triggered by the next fully validated block commits it to
   the store.  This file holds the closed witnesses; the theorems about them are the C09_scope_* of Properties_C09.v,
   over the same model the other C09 theorems use. *)
From Coq Require Import NArith List.
From SkV Require Import NodeModel.
Import ListNotations.
Open Scope N_scope.

Definition k_skip : N := 10000.
Definition k_valid (_ _ : N) : bool := true.
Definition k_conflict (_ _ : N) : bool := false.
Definition k_gen := mkAB 1 0 0.
Definition k_s0 : nstate := mkNS [k_gen] 1 [k_gen] 1 [] [] [1].       (* idle node: validated, flushed, nothing requested *)
Definition k_bad := mkAB 2 1 1.                                        (* fails in-state validation (e.g. inflated reward) *)
Definition k_bad_verdict := mkBV true true false.
Definition k_good := mkAB 3 1 1.                                       (* an honest sibling, relayed afterwards *)
Definition k_good_verdict := mkBV true true true.
