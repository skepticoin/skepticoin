(* States reached by admissible arrivals through add_block_no_validation ([arrivals sha l s], proofs/ChainDefs.v):
   what one arrival does to the five maps ([added], [add_nv_inv], [add_nv_frame]), the invariant of the block map and
   the unspent-set map ([Inv], [arrivals_inv]), and what follows from it: the ledger state stored at a block is a
   function of that block's chain alone (utxo_step, chain_rev_height, path_unique, utxo_replay, order_independent). *)
From stdpp Require Import gmap.
From Coq Require Import NArith ZArith Lia.
From SkV Require Import Bytes Codec Ledger ChainState ChainDefs BytesProofs.
Open Scope N_scope.

Section Replay.
  Variable sha : bytes -> bytes.
  Notation bid := (block_id sha).

  (* add_block_no_validation map by map; [add_nv_inv] and [add_nv_succeeds] below are the only places where add_nv
     is unfolded *)
  Record added (s : cstate) (b : block) (s' : cstate) : Prop := {
    ad_blocks : cs_blocks s' = <[ bid b := b ]> (cs_blocks s);
    ad_utxo : exists u0 u1,
      (if is_zero32 (b_prev b) then u0 = ∅ else cs_utxo s !! b_prev b = Some u0) /\
      uto_apply_block sha u0 b = Some u1 /\ cs_utxo s' = <[ bid b := u1 ]> (cs_utxo s);
    ad_byheight :
      if is_zero32 (b_prev b) then cs_byheight s' = {[ bid b := {[ 0 := b ]} ]}
      else exists m, cs_byheight s !! b_prev b = Some m /\
                     cs_byheight s' = <[ bid b := <[ b_height b := b ]> m ]> (cs_byheight s);
    ad_heads : cs_heads s' = <[ bid b := b ]> (delete (b_prev b) (cs_heads s));
    ad_cur : match cs_cur s with
             | None => cs_cur s' = Some (bid b)
             | Some c => if decide (c = b_prev b) then cs_cur s' = Some (bid b)
                         else exists cb, cs_blocks s !! c = Some cb /\
                                cs_cur s' = Some (if b_height cb <? b_height b then bid b else c)
             end
  }.

  Lemma add_nv_inv s b s' : add_nv sha s b = Some s' -> added s b s'.
  Proof.
    unfold add_nv. intros H.
    apply bind_Some in H as (u0 & E0 & H). apply bind_Some in H as (u1 & E1 & H).
    apply bind_Some in H as (bh & E2 & H). apply bind_Some in H as (cur & E3 & H).
    injection H as <-. split; cbn [cs_blocks cs_utxo cs_byheight cs_heads cs_cur]; try reflexivity.
    - exists u0, u1. split; [|auto]. destruct (is_zero32 (b_prev b)); congruence.
    - destruct (is_zero32 (b_prev b)); [congruence|].
      destruct (cs_byheight s !! b_prev b) as [m|]; [|discriminate]. exists m. split; congruence.
    - destruct (cs_cur s) as [c|]; [|congruence].
      destruct (decide (c = b_prev b)) as [Ec|Ec].
      + apply bytes_eqb_eq in Ec. rewrite Ec in E3. congruence.
      + apply bytes_eqb_neq in Ec. rewrite Ec in E3. destruct (cs_blocks s !! c) as [cb|]; [|discriminate].
        exists cb. split; congruence.
  Qed.

  (* conversely: on top of the current head, whose id is not the all-zero string, add_nv goes through as soon as the
     head's unspent set and index exist and the block applies to that set *)
  Lemma add_nv_succeeds s b cur u m :
    cs_cur s = Some cur -> b_prev b = cur -> is_zero32 cur = false ->
    cs_utxo s !! cur = Some u -> cs_byheight s !! cur = Some m ->
    is_Some (uto_apply_block sha u b) ->
    is_Some (add_nv sha s b).
  Proof.
    intros Hcur Hprev Hz Hu Hm [u1 Hu1]. unfold add_nv.
    rewrite Hprev, Hz, Hu, Hu1, Hm, Hcur, bytes_eqb_refl. eauto.
  Qed.

  Lemma stored_inj s a b : stored sha s a -> stored sha s b -> bid a = bid b -> a = b.
  Proof. unfold stored. intros Sa Sb E. rewrite E in Sa. congruence. Qed.

  Section Step.
    Variables (s : cstate) (b : block) (s' : cstate).
    Hypothesis Hadm : admissible sha s b.
    Hypothesis Hadd : add_nv sha s b = Some s'.

    Lemma add_nv_blocks : cs_blocks s' = <[ bid b := b ]> (cs_blocks s).
    Proof. exact (ad_blocks _ _ _ (add_nv_inv _ _ _ Hadd)). Qed.

    Lemma stored_new : stored sha s' b.
    Proof. unfold stored. rewrite add_nv_blocks. apply lookup_insert. Qed.

    Lemma stored_old_ne x : stored sha s x -> bid x <> bid b.
    Proof. unfold stored. destruct Hadm as [Hfresh _]. congruence. Qed.

    Lemma blocks_mono : cs_blocks s ⊆ cs_blocks s'.
    Proof. rewrite add_nv_blocks. apply insert_subseteq, Hadm. Qed.

    Lemma stored_old x : stored sha s x -> stored sha s' x.
    Proof. intros Sx. exact (lookup_weaken _ _ _ _ Sx blocks_mono). Qed.

    Lemma stored_inv x : stored sha s' x -> x = b \/ stored sha s x.
    Proof.
      unfold stored. rewrite add_nv_blocks. intros [[_ E]|[_ Sx]]%lookup_insert_Some; auto.
    Qed.

    Lemma add_nv_frame h : is_Some (cs_blocks s !! h) ->
      cs_blocks s' !! h = cs_blocks s !! h /\ cs_utxo s' !! h = cs_utxo s !! h /\
      cs_byheight s' !! h = cs_byheight s !! h.
    Proof.
      destruct Hadm as [Hfresh Hadm']. intros [x Hx].
      assert (Hn : bid b <> h) by congruence.
      destruct (add_nv_inv _ _ _ Hadd) as [Eb (u0 & u1 & _ & _ & Eu) Ebh _ _].
      rewrite Eb, Eu, !lookup_insert_ne by exact Hn. split; [reflexivity|]. split; [reflexivity|].
      destruct (is_zero32 (b_prev b)).
      - destruct Hadm' as (_ & He & _). rewrite He, lookup_empty in Hx. discriminate.
      - destruct Ebh as (m & _ & ->). apply lookup_insert_ne, Hn.
    Qed.
  End Step.

  Definition ustep (s : cstate) (b : block) : Prop :=
    exists u, cs_utxo s !! bid b = Some u /\
      (if is_zero32 (b_prev b) then uto_apply_block sha ∅ b = Some u
       else exists up, cs_utxo s !! b_prev b = Some up /\ uto_apply_block sha up b = Some u).

  Record Inv (l : list block) (s : cstate) : Prop := mkInv {
    inv_id : forall h b, cs_blocks s !! h = Some b -> h = bid b;
    inv_dom : dom (cs_utxo s) = dom (cs_blocks s);
    inv_parent : forall b, stored sha s b -> is_zero32 (b_prev b) = false ->
                 exists p, cs_blocks s !! b_prev b = Some p /\ b_height b = b_height p + 1;
    inv_ustep : forall b, stored sha s b -> ustep s b;
    inv_mem : forall h b, cs_blocks s !! h = Some b <-> b ∈ l /\ bid b = h;
    inv_size : forall b, stored sha s b -> (N.to_nat (b_height b) < size (cs_blocks s))%nat
  }.

  Lemma inv_empty : Inv [] cs_empty.
  Proof.
    split; unfold stored; cbn [cs_empty cs_blocks cs_utxo]; intros *; rewrite ?lookup_empty; try discriminate.
    - rewrite !dom_empty_L. reflexivity.
    - split; [discriminate|]. intros [[]%elem_of_nil _].
  Qed.

  Lemma lookup_stored l s h b : Inv l s -> cs_blocks s !! h = Some b -> stored sha s b /\ h = bid b.
  Proof. intros HI E. pose proof (inv_id _ _ HI _ _ E) as ->. split; [exact E | reflexivity]. Qed.

  Lemma parent_stored l s b : Inv l s -> stored sha s b -> is_zero32 (b_prev b) = false ->
    exists p, stored sha s p /\ b_prev b = bid p /\ b_height b = b_height p + 1.
  Proof.
    intros HI Sb Zb. destruct (inv_parent _ _ HI _ Sb Zb) as (p & Ep & Hh).
    destruct (lookup_stored _ _ _ _ HI Ep) as [Sp Eid]. exists p; auto.
  Qed.

  Lemma inv_step l s b s' :
    Inv l s -> admissible sha s b -> add_nv sha s b = Some s' -> Inv (l ++ [b]) s'.
  Proof.
    intros HI Hadm Hadd.
    pose proof (stored_inv _ _ _ Hadd) as Sinv. pose proof (blocks_mono _ _ _ Hadm Hadd) as Hsb.
    destruct (add_nv_inv _ _ _ Hadd) as [Eb (u0 & u1 & H0 & Hu1 & Eu) _ _ _].
    destruct Hadm as [Hfresh Hadm].
    (* the unspent-set map only grows, like the block map *)
    assert (Hsu : cs_utxo s ⊆ cs_utxo s').
    { rewrite Eu. apply insert_subseteq, not_elem_of_dom. rewrite (inv_dom _ _ HI). apply not_elem_of_dom, Hfresh. }
    (* the parent of a stored non-genesis block is an old block, also when the block is the new one *)
    assert (Hpar : forall x, stored sha s' x -> is_zero32 (b_prev x) = false ->
              exists p, cs_blocks s !! b_prev x = Some p /\ b_height x = b_height p + 1).
    { intros x [->|Sx]%Sinv Zx; [rewrite Zx in Hadm; exact Hadm | exact (inv_parent _ _ HI _ Sx Zx)]. }
    split.
    - intros h x. rewrite Eb. intros [[<- <-]|[_ E]]%lookup_insert_Some; [reflexivity | exact (inv_id _ _ HI _ _ E)].
    - rewrite Eb, Eu, !dom_insert_L, (inv_dom _ _ HI). reflexivity.
    - intros x Sx Zx. destruct (Hpar x Sx Zx) as (p & Ep & Hh). exists p.
      split; [exact (lookup_weaken _ _ _ _ Ep Hsb) | exact Hh].
    - intros x [->|Sx]%Sinv.
      + exists u1. split; [rewrite Eu; apply lookup_insert|].
        destruct (is_zero32 (b_prev b)); [subst u0; exact Hu1|].
        exists u0. split; [exact (lookup_weaken _ _ _ _ H0 Hsu) | exact Hu1].
      + destruct (inv_ustep _ _ HI x Sx) as (u & Hu & Hs). exists u. split; [exact (lookup_weaken _ _ _ _ Hu Hsu)|].
        destruct (is_zero32 (b_prev x)); [exact Hs|]. destruct Hs as (up & Hup & Hap).
        exists up. split; [exact (lookup_weaken _ _ _ _ Hup Hsu) | exact Hap].
    - intros h x. rewrite Eb, lookup_insert_Some, (inv_mem _ _ HI), elem_of_app, elem_of_list_singleton. split.
      + intros [[<- <-]|[_ [Hin Hid]]]; auto.
      + intros [[Hin| ->] Hid]; [right|left; auto]. split; [|auto]. intros E.
        assert (Hx : cs_blocks s !! h = Some x) by (apply (inv_mem _ _ HI); auto). congruence.
    - intros x Sx. rewrite Eb, map_size_insert_None by exact Hfresh.
      destruct (Sinv x Sx) as [->|Sx0]; [|pose proof (inv_size _ _ HI x Sx0); lia].
      destruct (is_zero32 (b_prev b)) eqn:Zb.
      + destruct Hadm as (_ & _ & ->). cbn. lia.
      + destruct (Hpar b (stored_new _ _ _ Hadd) Zb) as (p & Ep & ->).
        pose proof (inv_size _ _ HI p (proj1 (lookup_stored _ _ _ _ HI Ep))). lia.
  Qed.

  Lemma arrivals_inv l s : arrivals sha l s -> Inv l s.
  Proof.
    induction 1 as [|l s b s' Harr IH Hadm Hadd]; [apply inv_empty|].
    eapply inv_step; eauto.
  Qed.

  Theorem utxo_step l s b :
    arrivals sha l s -> stored sha s b ->
    exists u, cs_utxo s !! block_id sha b = Some u /\
      (if is_zero32 (b_prev b) then uto_apply_block sha ∅ b = Some u
       else exists up, cs_utxo s !! b_prev b = Some up /\ uto_apply_block sha up b = Some u).
  Proof. intros Harr Hst. exact (inv_ustep _ _ (arrivals_inv _ _ Harr) b Hst). Qed.

  Lemma path_stored s ch b : path sha s ch b -> stored sha s b.
  Proof. destruct 1; assumption. Qed.

  Lemma chain_rev_height l s : Inv l s ->
    forall n b, stored sha s b -> (N.to_nat (b_height b) < n)%nat ->
    exists ch, chain_rev n s (bid b) = Some ch /\ path sha s (rev ch) b /\ (length ch <= n)%nat.
  Proof.
    intros HI n. induction n as [|n IH]; intros b Hst Hh; [lia|].
    cbn [chain_rev]. rewrite Hst.
    destruct (is_zero32 (b_prev b)) eqn:Ez.
    - exists [b]. split; [reflexivity|]. split; [apply path_gen; assumption | cbn; lia].
    - destruct (parent_stored _ _ _ HI Hst Ez) as (p & Sp & Ep & Hhp).
      destruct (IH p Sp) as (chp & Hc & Hpath & Hlen); [lia|].
      rewrite Ep, Hc. exists (b :: chp). split; [reflexivity|].
      split; [eapply path_step; eauto | cbn [length]; lia].
  Qed.

  Lemma path_exists l s b : Inv l s -> stored sha s b ->
    exists ch, path sha s ch b /\ (length ch <= size (cs_blocks s))%nat.
  Proof.
    intros HI Hst.
    destruct (chain_rev_height _ _ HI _ b Hst (inv_size _ _ HI b Hst)) as (ch & _ & Hp & Hlen).
    exists (rev ch). rewrite rev_length. auto.
  Qed.

  Lemma chain_to_path l s b : Inv l s -> stored sha s b ->
    exists ch, chain_to s (bid b) = Some ch /\ path sha s ch b.
  Proof.
    intros HI Hst.
    destruct (chain_rev_height _ _ HI (S (size (cs_blocks s))) b Hst) as (ch & Hc & Hp & _).
    { apply le_S, (inv_size _ _ HI b Hst). }
    exists (rev ch). unfold chain_to. rewrite Hc. auto.
  Qed.

  Theorem path_unique s ch ch' b : path sha s ch b -> path sha s ch' b -> ch = ch'.
  Proof.
    intros H1. revert ch'. induction H1 as [g Hg Hz | l p b Hp IH Hb Hz Hpr]; intros ch' H2.
    - inversion H2 as [g' Hg' Hz' | l' p' b' Hp' Hb' Hz' Hpr']; subst; [reflexivity|congruence].
    - inversion H2 as [g' Hg' Hz' | l' p' b' Hp' Hb' Hz' Hpr']; subst; [congruence|].
      assert (p' = p) as -> by (eapply stored_inj; eauto using path_stored; congruence).
      f_equal. apply IH. exact Hp'.
  Qed.

  Lemma replay_utxo_app u l1 l2 :
    replay_utxo sha u (l1 ++ l2) =
    match replay_utxo sha u l1 with Some u' => replay_utxo sha u' l2 | None => None end.
  Proof.
    revert u. induction l1 as [|b l1 IH]; intros u; cbn [replay_utxo app]; [reflexivity|].
    destruct (uto_apply_block sha u b); [apply IH|reflexivity].
  Qed.

  Lemma utxo_replay_inv l s ch b : Inv l s -> path sha s ch b ->
    replay_utxo sha ∅ ch = cs_utxo s !! bid b.
  Proof.
    intros HI Hp. induction Hp as [g Hg Hz | ch p b Hp IH Hb Hz Hpr].
    - destruct (inv_ustep _ _ HI g Hg) as (u & Hu & Hs). rewrite Hz in Hs.
      cbn [replay_utxo]. rewrite Hs, Hu. reflexivity.
    - destruct (inv_ustep _ _ HI b Hb) as (u & Hu & Hs). rewrite Hz in Hs.
      destruct Hs as (up & Hup & Hap).
      rewrite replay_utxo_app, IH, <- Hpr, Hup. cbn [replay_utxo]. rewrite Hap, Hu. reflexivity.
  Qed.

  Theorem utxo_replay l s ch b :
    arrivals sha l s -> stored sha s b -> path sha s ch b ->
    replay_utxo sha ∅ ch = cs_utxo s !! block_id sha b /\ is_Some (cs_utxo s !! block_id sha b).
  Proof.
    intros Harr Hst Hp. pose proof (arrivals_inv _ _ Harr) as HI. split.
    - eapply utxo_replay_inv; eauto.
    - destruct (inv_ustep _ _ HI b Hst) as (u & Hu & _). eauto.
  Qed.

  (* paths and chains are read off the block map alone *)
  Lemma path_weaken s1 s2 ch b : cs_blocks s1 ⊆ cs_blocks s2 -> path sha s1 ch b -> path sha s2 ch b.
  Proof.
    intros E Hp. induction Hp as [g Hg Hz | ch p b Hp IH Hb Hz Hpr].
    - apply path_gen; [|exact Hz]. exact (lookup_weaken _ _ _ _ Hg E).
    - eapply path_step; eauto. exact (lookup_weaken _ _ _ _ Hb E).
  Qed.

  Lemma chain_rev_ext s1 s2 n h : cs_blocks s1 = cs_blocks s2 -> chain_rev n s1 h = chain_rev n s2 h.
  Proof.
    intros E. revert h. induction n as [|n IH]; intros h; cbn [chain_rev]; [reflexivity|].
    rewrite E. destruct (cs_blocks s2 !! h) as [b|]; [|reflexivity].
    destruct (is_zero32 (b_prev b)); [reflexivity|]. rewrite IH. reflexivity.
  Qed.

  Lemma chain_to_ext s1 s2 h : cs_blocks s1 = cs_blocks s2 -> chain_to s1 h = chain_to s2 h.
  Proof. intros E. unfold chain_to. rewrite (chain_rev_ext s1 s2 _ h E), E. reflexivity. Qed.

  Theorem order_independent l1 l2 s1 s2 :
    arrivals sha l1 s1 -> arrivals sha l2 s2 -> l1 ≡ₚ l2 ->
    cs_blocks s1 = cs_blocks s2 /\ cs_utxo s1 = cs_utxo s2 /\
    (forall h, balances_at sha s1 h = balances_at sha s2 h).
  Proof.
    intros A1 A2 Hperm.
    pose proof (arrivals_inv _ _ A1) as I1. pose proof (arrivals_inv _ _ A2) as I2.
    assert (Eb : cs_blocks s1 = cs_blocks s2).
    { apply map_eq. intros h. apply option_eq. intros b.
      rewrite (inv_mem _ _ I1), (inv_mem _ _ I2), Hperm. reflexivity. }
    split; [exact Eb|]. split.
    - apply map_eq. intros h. destruct (cs_blocks s1 !! h) as [b|] eqn:Hb.
      + destruct (lookup_stored _ _ _ _ I1 Hb) as [S1 ->].
        destruct (path_exists _ _ _ I1 S1) as (ch & Hp & _).
        rewrite <- (utxo_replay_inv _ _ _ _ I1 Hp).
        apply (utxo_replay_inv _ _ _ _ I2), (path_weaken s1), Hp. rewrite Eb. reflexivity.
      + transitivity (@None utxo); [|symmetry]; apply not_elem_of_dom.
        * rewrite (inv_dom _ _ I1). apply not_elem_of_dom. exact Hb.
        * rewrite (inv_dom _ _ I2), <- Eb. apply not_elem_of_dom. exact Hb.
    - intros h. unfold balances_at. rewrite (chain_to_ext s1 s2 h Eb). reflexivity.
  Qed.
End Replay.
