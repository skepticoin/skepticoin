(* One read from a peer (model/Dispatch.v): the shared state afterwards is the one the successfully handled frames
   produce, whatever the bytes were; the C20 theorems of props/Properties_C20.v follow from that. *)
From Coq Require Import NArith List Bool.
From SkV Require Import Wire Framing Dispatch.
Import ListNotations.

Section Read.
  Variable max_size : N.
  Variable shared : Type.
  Variable handle : shared -> msg_header -> msg -> bool -> option shared.
  Notation on_read := (on_read max_size shared handle).
  Notation frames := (frames shared handle).
  Notation frames_partial := (frames_partial shared handle).

  Definition shared_of (o : outcome shared) : shared := match o with Keep _ _ s => s | Dropped _ s => s end.

  Lemma frames_some_partial : forall fs hl s hl' s', frames hl s fs = Some (hl', s') -> frames_partial hl s fs = s'.
  Proof.
    induction fs as [|f r IH]; intros hl s hl' s' H; cbn [Dispatch.frames Dispatch.frames_partial] in *.
    - inversion H; reflexivity.
    - destruct (dec_frame f) as [[h m]|]; [|discriminate].
      destruct (negb (is_hello m) && negb hl); [discriminate|].
      destruct (handle s h m hl) as [s1|]; [|discriminate]. eapply IH; exact H.
  Qed.

  (* whatever bytes arrive, the shared state afterwards is the one produced by the successfully handled frames *)
  Theorem read_state_is_handled_prefix : forall c s data,
    shared_of (on_read c s data) =
    frames_partial (c_hello c) s (snd (fst (receive max_size (c_recv c) data))).
  Proof.
    intros c s data. unfold Dispatch.on_read.
    destruct (receive max_size (c_recv c) data) as [[r' fs] e]. cbn [fst snd].
    destruct (frames (c_hello c) s fs) as [[hl s']|] eqn:E.
    - apply frames_some_partial in E. destruct e; cbn [shared_of]; congruence.
    - reflexivity.
  Qed.

  (* what the handlers preserve when they SUCCEED, the frames of a read preserve up to the first failure *)
  Lemma frames_partial_ind (I : shared -> Prop) :
    (forall s h m b s', I s -> handle s h m b = Some s' -> I s') ->
    forall fs hl s, I s -> I (frames_partial hl s fs).
  Proof.
    intros HI. induction fs as [|f r IH]; intros hl s Hs; cbn [Dispatch.frames_partial]; [exact Hs|].
    destruct (dec_frame f) as [[h m]|]; [|exact Hs].
    destruct (negb (is_hello m) && negb hl); [exact Hs|].
    destruct (handle s h m hl) as [s1|] eqn:E; [|exact Hs]. apply IH. exact (HI _ _ _ _ _ Hs E).
  Qed.
End Read.
