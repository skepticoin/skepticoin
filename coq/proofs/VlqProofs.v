(* Proofs about the VLQ codec (serialization.py): round trip, canonicity of the strict decoder, and the
   refutation of canonicity for the lenient decoder that shipped before the fix.
   Encoder side: [digits n i] is determined by the low 7n bits of i, and its head is the next seven bits
   ([digits_add_high], [digits_head]).  Decoder side: the accumulating loop [vlq_dec_aux] inverts [digits]
   ([dec_digits_false], [dec_digits_true]), and whatever it accepts is a digit string ([dec_aux_digits]); the strict
   decoder adds the length test ([vlq_dec_inv]), which picks the one digit string the encoder writes. *)
From Coq Require Import NArith Arith List Lia.
From SkV Require Import Bytes Vlq.
Import ListNotations.
Open Scope N_scope.

Lemma pow128_nz n : 128 ^ n <> 0.  Proof. apply N.pow_nonzero; discriminate. Qed.

Lemma pow128_pos n : 0 < 128 ^ n.  Proof. apply N.neq_0_lt_0, pow128_nz. Qed.

Lemma pow128_S n : 128 ^ N.of_nat (S n) = 128 * 128 ^ N.of_nat n.
Proof. rewrite Nat2N.inj_succ. apply N.pow_succ_r'. Qed.

Lemma low7_lt i : i mod 128 < 128.  Proof. apply N.mod_lt; discriminate. Qed.

(* a byte carrying seven payload bits d: with the continuation bit set, and as the last of its number *)
Lemma cont_byte d : d < 128 -> (d + 128 <? 128) = false /\ (d + 128) mod 128 = d.
Proof.
  intros Hd. split; [apply N.ltb_ge; lia|].
  rewrite <- (N.mul_1_l 128) at 1. rewrite N.mod_add by discriminate. apply N.mod_small, Hd.
Qed.

Lemma last_byte d : d < 128 -> (d + 0 <? 128) = true /\ (d + 0) mod 128 = d.
Proof. intros Hd. rewrite N.add_0_r. split; [apply N.ltb_lt, Hd|apply N.mod_small, Hd]. Qed.

Lemma cont_byte_inv b : 128 <= b -> b < 256 -> b mod 128 + 128 = b.
Proof. intros Hl Hu. rewrite <- (N.mod_unique b 128 1 (b - 128)); lia. Qed.

Lemma size_bound i : i < 2 ^ N.size i.
Proof. destruct i as [|p]; [reflexivity|]. apply N.size_gt. Qed.

Lemma digits_S f i l : digits (S f) i l = digits f (i / 128) false ++ [i mod 128 + (if l then 0 else 128)].
Proof. reflexivity. Qed.

Lemma digits_length f i l : length (digits f i l) = f.
Proof.
  revert i l; induction f as [|f IH]; intros i l; [reflexivity|].
  rewrite digits_S, app_length, IH. apply Nat.add_1_r.
Qed.

Lemma digits_wf f i l : bytes_wf (digits f i l).
Proof.
  revert i l; induction f as [|f IH]; intros i l; [constructor|].
  rewrite digits_S. apply Forall_app; split; [apply IH|]. constructor; [|constructor].
  pose proof (low7_lt i). destruct l; lia.
Qed.

(* the low n digits do not see what lies above 128^n ... *)
Lemma digits_add_high n d w l : digits n (d * 128 ^ N.of_nat n + w) l = digits n w l.
Proof.
  revert d w l; induction n as [|n IH]; intros d w l; [reflexivity|].
  rewrite !digits_S, pow128_S.
  replace (d * (128 * 128 ^ N.of_nat n) + w) with (w + d * 128 ^ N.of_nat n * 128) by ring.
  rewrite N.div_add, N.mod_add, (N.add_comm (w / 128)), IH by discriminate. reflexivity.
Qed.

(* ... and the digit above them is the next seven bits, with the continuation bit *)
Lemma digits_head n i l :
  digits (S (S n)) i l = ((i / 128 ^ N.of_nat (S n)) mod 128 + 128) :: digits (S n) i l.
Proof.
  revert i l; induction n as [|n IH]; intros i l; [reflexivity|].
  rewrite (digits_S (S (S n))), IH, (digits_S (S n) i l), (pow128_S (S n)).
  rewrite N.div_div by (discriminate || apply pow128_nz). reflexivity.
Qed.

Lemma digits_cons n d w l : (0 < n)%nat -> w < 128 ^ N.of_nat n -> d < 128 ->
  digits (S n) (d * 128 ^ N.of_nat n + w) l = (d + 128) :: digits n w l.
Proof.
  intros Hn Hw Hd. destruct n as [|n]; [inversion Hn|].
  rewrite digits_head, N.div_add_l, (N.div_small w), N.add_0_r, (N.mod_small d) by (assumption || apply pow128_nz).
  rewrite digits_add_high. reflexivity.
Qed.

Lemma needed_enough i : i < 128 ^ N.of_nat (needed i).
Proof.
  unfold needed. rewrite N2Nat.id.
  change 128 with (2 ^ 7). rewrite <- N.pow_mul_r.
  eapply N.lt_le_trans; [apply size_bound|]. apply N.pow_le_mono_r; [discriminate|].
  pose proof (N.mod_lt (N.size i) 7). pose proof (N.div_mod (N.size i) 7). lia.
Qed.

Lemma needed_pos i : (0 < needed i)%nat.
Proof. unfold needed. rewrite N.add_1_r, N2Nat.inj_succ. apply Nat.lt_0_succ. Qed.

Lemma vlq_enc_length i : length (vlq_enc i) = needed i.
Proof. apply digits_length. Qed.

Theorem vlq_enc_wf i : bytes_wf (vlq_enc i).  Proof. apply digits_wf. Qed.

(* decoding the non-last digits of i (all with continuation bit) followed by anything *)
Lemma dec_digits_false f i acc tl :
  vlq_dec_aux acc (digits f i false ++ tl) =
  vlq_dec_aux ((acc * 128 ^ N.of_nat f) + (i mod 128 ^ N.of_nat f) * 128) tl.
Proof.
  revert i acc tl; induction f as [|f IH]; intros i acc tl.
  - cbn [digits app]. change (128 ^ N.of_nat 0) with 1. rewrite N.mod_1_r, N.mul_1_r, N.add_0_r. reflexivity.
  - rewrite digits_S, <- app_assoc, IH. cbn [app vlq_dec_aux].
    destruct (cont_byte _ (low7_lt i)) as [-> ->].
    rewrite pow128_S, N.mod_mul_r by (discriminate || apply pow128_nz).
    apply (f_equal (fun a => vlq_dec_aux a tl)). ring.
Qed.

Lemma dec_digits_true f i tl : (0 < f)%nat ->
  vlq_dec_aux 0 (digits f i true ++ tl) = Some (i mod 128 ^ N.of_nat f, tl).
Proof.
  intros Hf. destruct f as [|f]; [inversion Hf|]. rewrite digits_S, <- app_assoc, dec_digits_false.
  cbn [app vlq_dec_aux]. destruct (last_byte _ (low7_lt i)) as [-> ->].
  rewrite pow128_S, N.mod_mul_r by (discriminate || apply pow128_nz). f_equal. f_equal. ring.
Qed.

(* what the loop accepts: acc, then n+1 digits of some w, the last one without continuation bit *)
Lemma dec_aux_digits bs : forall acc v rest, bytes_wf bs -> vlq_dec_aux acc bs = Some (v, rest) ->
  exists n w, w < 128 ^ N.of_nat (S n) /\ v = acc * 128 ^ N.of_nat n + w /\ bs = digits (S n) w true ++ rest.
Proof.
  induction bs as [|b bs IH]; intros acc v rest Hwf Hdec; [discriminate|].
  cbn [vlq_dec_aux] in Hdec. inversion Hwf as [|? ? Hb Hwf']; subst.
  destruct (b <? 128) eqn:Hlt.
  - apply N.ltb_lt in Hlt. rewrite N.mod_small in Hdec by exact Hlt. injection Hdec as <- <-.
    exists 0%nat, b. split; [exact Hlt|]. split; [now rewrite N.mul_1_r|].
    cbn [digits app]. rewrite N.mod_small, N.add_0_r by exact Hlt. reflexivity.
  - destruct (IH _ _ _ Hwf' Hdec) as (n & w & Hw & -> & ->).
    apply N.ltb_ge in Hlt. pose proof (low7_lt b) as Hd.
    exists (S n), (b mod 128 * 128 ^ N.of_nat (S n) + w). split; [|split].
    + rewrite (pow128_S (S n)). nia.
    + rewrite (pow128_S n). ring.
    + rewrite digits_cons, cont_byte_inv by (assumption || apply Nat.lt_0_succ). reflexivity.
Qed.

(* the same with the number of digits read off the lengths, as the strict decoder does *)
Lemma dec_aux_canon bs : forall acc v rest, bytes_wf bs -> vlq_dec_aux acc bs = Some (v, rest) ->
  let n := (length bs - length rest)%nat in
  (0 < n)%nat /\ (length rest <= length bs)%nat /\
  exists w, w < 128 ^ N.of_nat n /\ v = acc * 128 ^ N.of_nat (n - 1) + w /\ bs = digits n w true ++ rest.
Proof.
  intros acc v rest Hwf Hdec. destruct (dec_aux_digits _ _ _ _ Hwf Hdec) as (n & w & Hw & Hv & Hbs).
  assert (Hn : (length bs - length rest = S n)%nat).
  { rewrite Hbs at 1. rewrite app_length, digits_length. apply Nat.add_sub. }
  cbv zeta. rewrite Hn, Nat.sub_succ, Nat.sub_0_r.
  split; [apply Nat.lt_0_succ|]. split; [lia|]. exists w. auto.
Qed.

Lemma vlq_dec_aux_shorter bs : forall acc v rest, vlq_dec_aux acc bs = Some (v, rest) -> (length rest < length bs)%nat.
Proof.
  induction bs as [|b bs IH]; intros acc v rest H; cbn [vlq_dec_aux] in H; [discriminate|].
  destruct (b <? 128).
  - injection H as _ <-. apply Nat.lt_succ_diag_r.
  - apply Nat.lt_lt_succ_r, (IH _ _ _ H).
Qed.

(* the strict decoder is the lenient one restricted to the results that took as many bytes as the encoder writes *)
Lemma vlq_dec_inv bs v rest :
  vlq_dec bs = Some (v, rest) -> vlq_dec_lenient bs = Some (v, rest) /\ (length bs - length rest)%nat = needed v.
Proof.
  unfold vlq_dec. destruct (vlq_dec_lenient bs) as [[v' rest']|]; [|discriminate].
  destruct (Nat.eqb_spec (length bs - length rest') (needed v')) as [E|_]; [|discriminate].
  intros [= <- <-]. auto.
Qed.

Theorem vlq_roundtrip_lenient i rest : vlq_dec_lenient (vlq_enc i ++ rest) = Some (i, rest).
Proof.
  unfold vlq_dec_lenient, vlq_enc. rewrite dec_digits_true by apply needed_pos.
  rewrite N.mod_small by apply needed_enough. reflexivity.
Qed.

Theorem vlq_roundtrip i rest : vlq_dec (vlq_enc i ++ rest) = Some (i, rest).
Proof.
  unfold vlq_dec. rewrite vlq_roundtrip_lenient, app_length, vlq_enc_length, Nat.add_sub, Nat.eqb_refl. reflexivity.
Qed.

Lemma vlq_enc_inj a b : vlq_enc a = vlq_enc b -> a = b.
Proof.
  intros E. pose proof (vlq_roundtrip a []) as H. rewrite E, vlq_roundtrip in H. injection H as <-. reflexivity.
Qed.

Theorem vlq_canonical bs v rest : bytes_wf bs ->
  vlq_dec bs = Some (v, rest) -> vlq_enc v ++ rest = bs.
Proof.
  intros Hwf H. apply vlq_dec_inv in H as [Hd Hn].
  destruct (dec_aux_canon bs 0 v rest Hwf Hd) as (_ & _ & w & _ & Hv & Hbs).
  rewrite N.mul_0_l, N.add_0_l in Hv. subst w. rewrite Hn in Hbs. symmetry. exact Hbs.
Qed.

Lemma vlq_dec_shorter bs v rest : vlq_dec bs = Some (v, rest) -> (length rest < length bs)%nat.
Proof. intros H. apply vlq_dec_inv in H as [H _]. exact (vlq_dec_aux_shorter _ _ _ _ H). Qed.

(* The lenient decoder is NOT canonical: the finding, as a theorem about the faithful model.  Two witnesses: a leading
   0x80 byte, and the one-byte form of 126 (the encoder writes two bytes from 64 on, see [needed]). *)
Theorem vlq_canonical_refuted :
  exists bs v rest, bytes_wf bs /\ vlq_dec_lenient bs = Some (v, rest) /\ vlq_enc v ++ rest <> bs.
Proof. exists [128;0], 0, []. split; [repeat constructor|]. split; [reflexivity|]. discriminate. Qed.
Theorem vlq_canonical_refuted_short :
  exists bs v rest, bytes_wf bs /\ vlq_dec_lenient bs = Some (v, rest) /\ vlq_enc v ++ rest <> bs.
Proof. exists [126], 126, []. split; [repeat constructor|]. split; [reflexivity|]. discriminate. Qed.
