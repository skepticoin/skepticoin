(* model/WalletModel.v: the spend builder selects the greedy prefix of the available references (create_spend_some,
   spend_failure_frame_exact); key operations keep unused and annotated keys apart, and a key that was handed out is
   not handed out again before it is restored (wstep_WInv, no_reuse); a save shows the old content of the target until
   its last operation (save_proper_prefix, save_complete). *)
From Coq Require Import NArith List Bool Arith Lia.
From SkV Require Import WalletModel ListFacts.
Import ListNotations.
Open Scope N_scope.

Definition all_refs (h : holdings) : list (N * N) := concat (map (fun kv => snd kv) h).
Definition avail (used : list N) (h : holdings) : list (N * N) :=
  filter (fun rv => negb (existsb (N.eqb (fst rv)) used)) (all_refs h).
Definition total (l : list (N * N)) : N := fold_right (fun rv s => snd rv + s) 0 l.

(* value of a reference in the holdings (first occurrence; unique when references are NoDup) *)
Definition ref_value (h : holdings) (r : N) : N :=
  match find (fun rv => fst rv =? r) (all_refs h) with Some rv => snd rv | None => 0 end.
Definition sum_values (h : holdings) (ins : list N) : N := fold_right (fun r s => ref_value h r + s) 0 ins.

Lemma total_cons a l : total (a :: l) = snd a + total l.
Proof. reflexivity. Qed.

Lemma total_app l1 l2 : total (l1 ++ l2) = total l1 + total l2.
Proof.
  induction l1 as [|a l1 IH]; [reflexivity|].
  rewrite <- app_comm_cons, !total_cons, IH. apply N.add_assoc.
Qed.

(* the greedy scan on the flat list of available references: the shortest non-empty prefix that reaches need *)
Fixpoint pick (need got : N) (l : list (N * N)) : option (list (N * N)) :=
  match l with
  | [] => None
  | rv :: rest =>
      if need <=? got + snd rv then Some [rv]
      else match pick need (got + snd rv) rest with Some s => Some (rv :: s) | None => None end
  end.

Lemma pick_app need l1 : forall got l2,
  pick need got (l1 ++ l2) =
  match pick need got l1 with
  | Some s => Some s
  | None => match pick need (got + total l1) l2 with Some s => Some (l1 ++ s) | None => None end
  end.
Proof.
  induction l1 as [|a l1 IH]; intros got l2.
  - cbn [app pick total fold_right]. rewrite N.add_0_r. destruct (pick need got l2); reflexivity.
  - cbn [app pick]. destruct (need <=? got + snd a); [reflexivity|].
    rewrite IH. destruct (pick need (got + snd a) l1); [reflexivity|].
    rewrite total_cons, N.add_assoc.
    destruct (pick need (got + snd a + total l1) l2); reflexivity.
Qed.

Lemma pick_some need l : forall got s,
  pick need got l = Some s ->
  exists p x rest, s = p ++ [x] /\ l = s ++ rest /\ need <= got + total s /\
                   (got < need \/ p <> [] -> got + total p < need).
Proof.
  induction l as [|a l IH]; intros got s H; [discriminate|].
  cbn [pick] in H. destruct (N.leb_spec need (got + snd a)) as [Hle|Hgt].
  - injection H as <-. exists [], a, l. cbn [app total fold_right]. rewrite !N.add_0_r.
    repeat split; [exact Hle|]. intros [Hlt|[]]; [exact Hlt|reflexivity].
  - destruct (pick need (got + snd a) l) as [s'|] eqn:Ep; [|discriminate].
    injection H as <-. destruct (IH _ _ Ep) as (p & x & rest & -> & -> & Hge & Hmin).
    exists (a :: p), x, rest. rewrite <- N.add_assoc in Hge.
    repeat split; [exact Hge|]. intros _. rewrite total_cons, N.add_assoc. apply Hmin. left. exact Hgt.
Qed.

Lemma pick_none need l : forall got, pick need got l = None <-> l = [] \/ got + total l < need.
Proof.
  induction l as [|a l IH]; intros got; cbn [pick]; [tauto|].
  rewrite total_cons. destruct (N.leb_spec need (got + snd a)) as [Hle|Hgt].
  - split; [discriminate|]. intros [H|H]; [discriminate|lia].
  - specialize (IH (got + snd a)). destruct (pick need (got + snd a) l) as [s|].
    + split; [discriminate|]. intros [H|H]; [discriminate|].
      assert (Hc : Some s = None) by (apply IH; lia). discriminate.
    + split; [|reflexivity]. intros _. right.
      destruct (proj1 IH eq_refl) as [->|H]; [cbn|]; lia.
Qed.

(* the test by which avail keeps a reference *)
Definition not_used (used : list N) : N * N -> bool := fun rv => negb (existsb (N.eqb (fst rv)) used).

Lemma collect_refs_spec used need : forall refs acc got,
  collect_refs used refs need acc got =
  match pick need got (filter (not_used used) refs) with
  | Some s => (rev (map fst s) ++ acc, got + total s, true)
  | None => (rev (map fst (filter (not_used used) refs)) ++ acc, got + total (filter (not_used used) refs), false)
  end.
Proof.
  induction refs as [|[r v] rest IH]; intros acc got.
  - cbn. rewrite N.add_0_r. reflexivity.
  - cbn [collect_refs filter]. change (not_used used (r, v)) with (negb (existsb (N.eqb r) used)).
    destruct (existsb (N.eqb r) used); cbn [negb]; [apply IH|].
    cbn [pick snd]. destruct (need <=? got + v).
    + cbn. rewrite N.add_0_r. reflexivity.
    + rewrite IH. destruct (pick need (got + v) (filter (not_used used) rest));
        cbn [map fst rev]; rewrite <- app_assoc, total_cons, N.add_assoc; reflexivity.
Qed.

Lemma avail_cons used k refs rest : avail used ((k, refs) :: rest) = filter (not_used used) refs ++ avail used rest.
Proof. unfold avail, all_refs. cbn [map concat snd]. apply filter_app. Qed.

Lemma collect_keys_spec used need : forall h acc got,
  collect_keys used h need acc got =
  match pick need got (avail used h) with
  | Some s => Some (rev acc ++ map fst s, got + total s)
  | None => None
  end.
Proof.
  induction h as [|[k refs] rest IH]; intros acc got; [reflexivity|].
  cbn [collect_keys]. rewrite collect_refs_spec, avail_cons, pick_app.
  destruct (pick need got (filter (not_used used) refs)) as [s|].
  - rewrite rev_app_distr, rev_involutive. reflexivity.
  - rewrite IH.
    destruct (pick need (got + total (filter (not_used used) refs)) (avail used rest)) as [s|]; [|reflexivity].
    rewrite rev_app_distr, rev_involutive, map_app, total_app, <- app_assoc, N.add_assoc. reflexivity.
Qed.

Lemma create_spend_spec used h value fee :
  create_spend used h value fee =
  match pick (value + fee) 0 (avail used h) with
  | Some s => Some (mkSpend (map fst s) value
                      (if total s =? value + fee then None else Some (total s - (value + fee))),
                    used ++ map fst s)
  | None => None
  end.
Proof.
  unfold create_spend. rewrite collect_keys_spec.
  destruct (pick (value + fee) 0 (avail used h)); reflexivity.
Qed.

Lemma change_spec got need :
  need <= got ->
  let change := if got =? need then None else Some (got - need) in
  (change = None <-> got = need) /\ (forall c, change = Some c -> c = got - need /\ 0 < c).
Proof.
  intros Hge. cbv zeta. destruct (N.eqb_spec got need) as [E|E].
  - split; [tauto|discriminate].
  - split; [split; [discriminate|tauto]|]. intros c [= <-]. lia.
Qed.

(* A successful spend takes the greedy prefix s = p ++ [x] of the available references: s reaches the amount and p
   does not.  When nothing is asked for (value + fee = 0) the scan still takes one reference, and then p = []
   would have done: the only exception. *)
Theorem create_spend_some used h value fee sp used' :
  create_spend used h value fee = Some (sp, used') ->
  exists s p x rest, s = p ++ [x] /\ avail used h = s ++ rest /\
    sp = mkSpend (map fst s) value (if total s =? value + fee then None else Some (total s - (value + fee))) /\
    used' = used ++ map fst s /\
    value + fee <= total s /\ (0 < value + fee \/ p <> [] -> total p < value + fee).
Proof.
  rewrite create_spend_spec. destruct (pick (value + fee) 0 (avail used h)) as [s|] eqn:Ep; [|discriminate].
  intros [= <- <-]. destruct (pick_some _ _ _ _ Ep) as (p & x & rest & Es & Hl & Hge & Hmin).
  exists s, p, x, rest. repeat split; assumption.
Qed.

(* A spend fails exactly when the available references do not reach the amount -- or when there are none at all,
   even if nothing is asked for: the scan of an empty list reports "insufficient" although 0 <= 0. *)
Theorem spend_failure_frame_exact used h value fee :
  create_spend used h value fee = None <-> avail used h = [] \/ total (avail used h) < value + fee.
Proof. rewrite create_spend_spec, <- (pick_none _ _ 0). destruct (pick _ _ _); split; congruence. Qed.

Theorem spend_failure_frame_if used h value fee :
  total (avail used h) < value + fee -> create_spend used h value fee = None.
Proof. intros H. apply spend_failure_frame_exact. right. exact H. Qed.

(* The left disjunct of spend_failure_frame_exact cannot be dropped, and "affordable, so it succeeds" fails with it:
   nothing available and a request of 0 (Properties_C14 states both with the proviso 0 < value + fee). *)
Theorem spend_failure_frame_refuted : exists used h value fee,
  create_spend used h value fee = None /\ ~ total (avail used h) < value + fee.
Proof. exists [], [], 0, 0. split; [reflexivity|exact (N.lt_irrefl 0)]. Qed.

Theorem affordable_after_failed_attempt_refuted : exists used h v1 f1 v2 f2,
  create_spend used h v1 f1 = None /\ total (avail used h) >= v2 + f2 /\ create_spend used h v2 f2 = None.
Proof. exists [], [], 1, 0, 0, 0. split; [reflexivity|]. split; [vm_compute; discriminate|reflexivity]. Qed.

(* "Dropping the last selected input leaves strictly less than value + fee" is false of the model when
   value + fee = 0: the scan then still selects the first available reference, and dropping it leaves 0. *)
Theorem spend_minimal_refuted : exists used h value fee sp used',
  NoDup (map fst (all_refs h)) /\ create_spend used h value fee = Some (sp, used') /\
  ~ sum_values h (removelast (sp_inputs sp)) < value + fee.
Proof.
  exists [], [(1, [(1, 5)])], 0, 0, (mkSpend [1] 0 (Some 5)), [1].
  split; [repeat constructor; cbn; tauto|]. split; [vm_compute; reflexivity|]. vm_compute. discriminate.
Qed.

Lemma in_avail used h rv : In rv (avail used h) <-> In rv (all_refs h) /\ ~ In (fst rv) used.
Proof.
  unfold avail. rewrite filter_In, negb_true_iff, <- not_true_iff_false, existsb_eqb_In. reflexivity.
Qed.

Lemma find_unique (L : list (N * N)) r v :
  NoDup (map fst L) -> In (r, v) L -> find (fun rv => fst rv =? r) L = Some (r, v).
Proof.
  induction L as [|[r' v'] L IH]; cbn [map fst find]; intros Hd Hin; [destruct Hin|].
  apply NoDup_cons_iff in Hd. destruct Hd as [Hn Hd].
  destruct Hin as [[= -> ->]|Hin]; [rewrite N.eqb_refl; reflexivity|].
  destruct (N.eqb_spec r' r) as [->|_]; [|exact (IH Hd Hin)].
  destruct Hn. exact (in_map fst _ _ Hin).
Qed.

Lemma sum_values_total h s :
  NoDup (map fst (all_refs h)) -> incl s (all_refs h) -> sum_values h (map fst s) = total s.
Proof.
  intros Hd. induction s as [|[r v] s IH]; intros Hin; [reflexivity|].
  cbn [map fst sum_values fold_right]. fold (sum_values h (map fst s)).
  rewrite total_cons. cbn [snd]. rewrite IH by (intros x Hx; apply Hin; right; exact Hx).
  unfold ref_value. rewrite (find_unique _ r v Hd) by (apply Hin; left; reflexivity). reflexivity.
Qed.

Lemma avail_prefix used h s rest :
  NoDup (map fst (all_refs h)) -> avail used h = s ++ rest ->
  NoDup (map fst s) /\
  (forall r, In r (map fst s) -> In r (map fst (all_refs h)) /\ ~ In r used) /\
  sum_values h (map fst s) = total s.
Proof.
  intros Hd Hl.
  assert (Hin : forall rv, In rv s -> In rv (all_refs h) /\ ~ In (fst rv) used).
  { intros rv Hrv. apply in_avail. rewrite Hl. apply in_or_app. left. exact Hrv. }
  split; [|split].
  - apply NoDup_app_l with (map fst rest). rewrite <- map_app, <- Hl. apply NoDup_map_filter, Hd.
  - intros r Hr. apply in_map_iff in Hr. destruct Hr as (rv & <- & Hrv). apply Hin in Hrv.
    split; [apply in_map|]; tauto.
  - apply sum_values_total; [exact Hd|]. intros rv Hrv. apply Hin, Hrv.
Qed.

(* sequences of requests against one ledger view; WalletReorgProofs lets the view change between requests *)
Fixpoint run_spends (used : list N) (h : holdings) (reqs : list (N * N)) : list (option spend) :=
  match reqs with
  | [] => []
  | (v, f) :: rest =>
      match create_spend used h v f with
      | Some (sp, used') => Some sp :: run_spends used' h rest
      | None => None :: run_spends used h rest
      end
  end.

Lemma create_spend_fresh used h v f sp used' :
  create_spend used h v f = Some (sp, used') ->
  used' = used ++ sp_inputs sp /\ forall r, In r (sp_inputs sp) -> ~ In r used.
Proof.
  intros H. destruct (create_spend_some _ _ _ _ _ _ H) as (s & _ & _ & rest & _ & Hl & -> & -> & _).
  split; [reflexivity|]. intros r Hr. apply in_map_iff in Hr. destruct Hr as (rv & <- & Hrv).
  apply (in_avail used h rv). rewrite Hl. apply in_or_app. left. exact Hrv.
Qed.

(* The behaviour shipped before the fix (create_spend_prefix) fails the second request of C14_prefix_poisons_refuted:
   the failed request for 100 marks 11, 12 and 13 used.  With the fixed builder the same second request succeeds: *)
Theorem fixed_builder_not_poisoned : exists r,
  create_spend [] [(1, [(11, 10); (12, 10); (13, 10)])] 100 0 = None /\
  create_spend [] [(1, [(11, 10); (12, 10); (13, 10)])] 5 0 = Some r.
Proof. eexists. split; vm_compute; reflexivity. Qed.

Definition WInv (w : wallet) : Prop :=
  NoDup (w_unused w) /\ NoDup (map fst (w_annot w)) /\
  (forall k, In k (w_unused w) -> In k (w_keys w)) /\
  (forall k, In k (map fst (w_annot w)) -> In k (w_keys w)) /\
  (forall k, In k (w_unused w) -> ~ In k (map fst (w_annot w))).

Definition drop_key (k : N) (l : list (N * N)) : list (N * N) := filter (fun e => negb (fst e =? k)) l.

Lemma in_drop_key k l x : In x (map fst (drop_key k l)) <-> In x (map fst l) /\ x <> k.
Proof.
  unfold drop_key. rewrite !in_map_iff. split.
  - intros (e & <- & Hin). apply filter_In in Hin. destruct Hin as [Hin Hb].
    apply negb_true_iff, N.eqb_neq in Hb. split; [exists e; auto|exact Hb].
  - intros [(e & <- & Hin) Hne]. exists e. split; [reflexivity|].
    apply filter_In. split; [exact Hin|]. apply negb_true_iff, N.eqb_neq, Hne.
Qed.

Lemma NoDup_drop_key k l : NoDup (map fst l) -> NoDup (map fst (drop_key k l)).
Proof. apply NoDup_map_filter. Qed.

(* the operations on the lists; hand_out takes the LAST unused key *)
Lemma hand_out_snoc w a c r k :
  w_unused w = r ++ [k] ->
  hand_out w a c = (Some k, mkW (w_keys w) r (drop_key k (w_annot w) ++ [(k, a)])).
Proof. intros E. unfold hand_out. rewrite E, rev_unit, rev_involutive. reflexivity. Qed.

Lemma hand_out_exhausted w a c : w_unused w = [] -> hand_out w a c = (nth_error (w_keys w) c, w).
Proof. intros E. unfold hand_out. rewrite E. reflexivity. Qed.

Lemma restore_spec w k w' :
  restore w k = Some w' <->
  In k (map fst (w_annot w)) /\ w' = mkW (w_keys w) (w_unused w ++ [k]) (drop_key k (w_annot w)).
Proof.
  unfold restore.
  pose proof (existsb_eqb_In_map fst (w_annot w) k) as E. destruct (existsb _ _).
  - (* the test says true, which by E is: k is annotated *)
    split.
    + intros [= <-]. split; [apply E; reflexivity|reflexivity].
    + intros [_ ->]. reflexivity.
  - split; [discriminate|]. intros [H _]. apply E in H. discriminate.
Qed.

Lemma generate_WInv w k : WInv w -> ~ In k (w_keys w) -> WInv (generate w k).
Proof.
  intros (Hu & Ha & Huk & Hak & Hdis) Hf. unfold generate, WInv. cbn [w_keys w_unused w_annot].
  split; [apply NoDup_snoc; auto|]. split; [exact Ha|]. split.
  { intros x Hx. apply in_snoc. apply in_snoc in Hx. destruct Hx; auto. }
  split; [intros x Hx; apply in_snoc; auto|].
  intros x Hx Hc. apply in_snoc in Hx. destruct Hx as [Hx| ->]; [exact (Hdis x Hx Hc)|auto].
Qed.

(* also on an exhausted wallet, where nothing is recorded *)
Lemma hand_out_WInv w a c : WInv w -> WInv (snd (hand_out w a c)).
Proof.
  intros HI. destruct (snoc_cases (w_unused w)) as [E|(r & k & E)].
  { rewrite hand_out_exhausted by exact E. exact HI. }
  rewrite (hand_out_snoc w a c r k E). destruct HI as (Hu & Ha & Huk & Hak & Hdis).
  rewrite E in Hu, Huk, Hdis. apply NoDup_snoc in Hu. destruct Hu as [Hr Hkr].
  unfold WInv. cbn [snd w_keys w_unused w_annot]. rewrite map_app. cbn [map fst].
  split; [exact Hr|]. split.
  { apply NoDup_snoc. split; [apply NoDup_drop_key, Ha|]. intros Hc. apply in_drop_key in Hc. tauto. }
  split; [intros x Hx; apply Huk, in_snoc; auto|]. split.
  - intros x Hx. apply in_snoc in Hx. destruct Hx as [Hx| ->]; [|apply Huk, in_snoc; auto].
    apply in_drop_key in Hx. apply Hak. tauto.
  - intros x Hx Hc. apply in_snoc in Hc. destruct Hc as [Hc| ->]; [|exact (Hkr Hx)].
    apply in_drop_key in Hc. apply (Hdis x); [apply in_snoc|]; tauto.
Qed.

Lemma restore_WInv w k w' : WInv w -> restore w k = Some w' -> WInv w'.
Proof.
  intros (Hu & Ha & Huk & Hak & Hdis) H. apply restore_spec in H. destruct H as [Hk ->].
  unfold WInv. cbn [w_keys w_unused w_annot].
  split; [apply NoDup_snoc; split; [exact Hu|]; intros Hc; exact (Hdis k Hc Hk)|].
  split; [apply NoDup_drop_key, Ha|]. split.
  { intros x Hx. apply in_snoc in Hx. destruct Hx as [Hx| ->]; auto. }
  split; [intros x Hx; apply in_drop_key in Hx; apply Hak; tauto|].
  intros x Hx Hc. apply in_drop_key in Hc. destruct Hc as [Hc Hne].
  apply in_snoc in Hx. destruct Hx as [Hx|Hx]; [exact (Hdis x Hx Hc)|exact (Hne Hx)].
Qed.

Inductive wop := OHand (a : N) (choice : nat) | OGen (k : N) | ORestore (k : N).
Inductive wevent := EHanded (k : N) | ERestored (k : N) | EQuiet.

(* One step.  The wallet always moves by the model functions.  The log records
   - EHanded k   : a hand_out on a NON-exhausted wallet returned k (exhausted hand_outs are not counted: EQuiet);
   - ERestored k : restore k SUCCEEDED (k was annotated); a failing restore (KeyError) changes nothing: EQuiet. *)
Definition wstep (w : wallet) (o : wop) : wevent * wallet :=
  match o with
  | OHand a c =>
      (match w_unused w, fst (hand_out w a c) with
       | _ :: _, Some k => EHanded k
       | _, _ => EQuiet
       end, snd (hand_out w a c))
  | OGen k => (EQuiet, generate w k)
  | ORestore k => match restore w k with Some w' => (ERestored k, w') | None => (EQuiet, w) end
  end.

Fixpoint wrun (w : wallet) (ops : list wop) : list wevent :=
  match ops with
  | [] => []
  | o :: rest => fst (wstep w o) :: wrun (snd (wstep w o)) rest
  end.

(* every generate in the run produces a key that is not yet in the wallet *)
Fixpoint gens_fresh (w : wallet) (ops : list wop) : Prop :=
  match ops with
  | [] => True
  | o :: rest =>
      match o with OGen k => ~ In k (w_keys w) | _ => True end /\ gens_fresh (snd (wstep w o)) rest
  end.

Lemma wstep_WInv w o :
  WInv w -> match o with OGen k => ~ In k (w_keys w) | _ => True end -> WInv (snd (wstep w o)).
Proof.
  intros HI Hf. destruct o as [a c|k|k]; cbn [wstep snd].
  - apply hand_out_WInv. exact HI.
  - apply generate_WInv; assumption.
  - destruct (restore w k) as [w'|] eqn:E; [eapply restore_WInv; eassumption|exact HI].
Qed.

(* what one step does, on the lists *)
Inductive wstep_view (w : wallet) : wop -> wevent * wallet -> Prop :=
| SExhausted a c : w_unused w = [] -> wstep_view w (OHand a c) (EQuiet, w)
| SHanded a c r k : w_unused w = r ++ [k] ->
    wstep_view w (OHand a c) (EHanded k, mkW (w_keys w) r (drop_key k (w_annot w) ++ [(k, a)]))
| SGenerated k : wstep_view w (OGen k) (EQuiet, mkW (w_keys w ++ [k]) (w_unused w ++ [k]) (w_annot w))
| SRestored k w' : restore w k = Some w' -> w' = mkW (w_keys w) (w_unused w ++ [k]) (drop_key k (w_annot w)) ->
    wstep_view w (ORestore k) (ERestored k, w')
| SNotRestored k : restore w k = None -> wstep_view w (ORestore k) (EQuiet, w).

Lemma wstep_cases w o : wstep_view w o (wstep w o).
Proof.
  destruct o as [a c|k|k]; cbn [wstep].
  - destruct (snoc_cases (w_unused w)) as [E|(r & k & E)].
    + rewrite hand_out_exhausted, E by exact E. constructor. exact E.
    + rewrite (hand_out_snoc w a c r k E), E.
      (* wstep matches on w_unused w: r ++ [k] has to reduce to a cons *)
      destruct r; constructor; exact E.
  - constructor.
  - destruct (restore w k) as [w'|] eqn:E; [|apply SNotRestored; exact E].
    apply SRestored; [exact E|]. apply restore_spec in E. apply E.
Qed.

(* the log is faithful: EHanded k in the log means the model's hand_out returned k on a non-exhausted wallet, and
   ERestored k means the model's restore succeeded *)
Lemma wstep_handed w o k :
  fst (wstep w o) = EHanded k <-> exists a c, o = OHand a c /\ w_unused w <> [] /\ fst (hand_out w a c) = Some k.
Proof.
  split.
  - destruct (wstep_cases w o) as [|a c r k' E| | |]; try discriminate. intros [= ->]. exists a, c.
    rewrite (hand_out_snoc w a c r k E), E. split; [reflexivity|].
    split; [apply not_eq_sym, app_cons_not_nil|reflexivity].
  - intros (a & c & -> & Hne & E). cbn [wstep fst]. rewrite E. destruct (w_unused w); congruence.
Qed.

Lemma wstep_restored w o k :
  fst (wstep w o) = ERestored k <-> o = ORestore k /\ restore w k <> None.
Proof.
  split.
  - destruct (wstep_cases w o) as [| | |k' w' E|]; try discriminate. intros [= ->]. split; congruence.
  - intros [-> H]. cbn [wstep]. destruct (restore w k); [reflexivity|congruence].
Qed.

(* k is out: a key of the wallet that is not listed as unused *)
Definition out (k : N) (w : wallet) : Prop := In k (w_keys w) /\ ~ In k (w_unused w).

Lemma out_after_handed w o k : WInv w -> fst (wstep w o) = EHanded k -> out k (snd (wstep w o)).
Proof.
  intros (Hu & _ & Huk & _). destruct (wstep_cases w o) as [|a c r k' E| | |]; try discriminate.
  intros [= ->]. rewrite E in Hu, Huk. apply NoDup_snoc in Hu.
  split; [apply Huk, in_snoc; auto|tauto].
Qed.

(* a key that is out is not handed out, and stays out unless it is restored; a generated key must be new, or it
   would come back into the unused list here *)
Lemma out_step w o k :
  match o with OGen k => ~ In k (w_keys w) | _ => True end -> out k w ->
  fst (wstep w o) <> EHanded k /\ (fst (wstep w o) = ERestored k \/ out k (snd (wstep w o))).
Proof.
  intros Hf [Hk Hnu]. unfold out.
  destruct (wstep_cases w o) as [a c E|a c r k' E|k'|k' w' _ ->|k' E]; cbn [fst snd w_keys w_unused].
  - split; [discriminate|]. auto.
  - rewrite E in Hnu. split; [intros [= ->]; apply Hnu, in_snoc; right; reflexivity|].
    right. split; [exact Hk|]. intros Hc. apply Hnu, in_snoc. left. exact Hc.
  - split; [discriminate|]. right. split; [apply in_snoc; left; exact Hk|].
    intros Hc. apply in_snoc in Hc. destruct Hc as [Hc| ->]; [exact (Hnu Hc)|exact (Hf Hk)].
  - split; [discriminate|]. destruct (N.eq_dec k' k) as [->|Hne]; [left; reflexivity|right].
    split; [exact Hk|]. intros Hc. apply in_snoc in Hc. destruct Hc as [Hc|Hc]; [exact (Hnu Hc)|congruence].
  - split; [discriminate|]. auto.
Qed.

Lemma out_until_restored ops : forall w k j,
  gens_fresh w ops -> out k w ->
  nth_error (wrun w ops) j = Some (EHanded k) ->
  exists m, (m < j)%nat /\ nth_error (wrun w ops) m = Some (ERestored k).
Proof.
  induction ops as [|o ops IH]; intros w k j Hg Ho Hj; [destruct j; discriminate|].
  destruct Hg as [Hf Hg]. destruct (out_step w o k Hf Ho) as [Hnh Hnext].
  destruct j as [|j]; cbn in Hj; [congruence|].
  destruct Hnext as [Hr|Ho'].
  - exists 0%nat. split; [lia|]. cbn. congruence.
  - destruct (IH _ _ _ Hg Ho' Hj) as (m & Hm & Hnm).
    exists (S m). split; [lia|exact Hnm].
Qed.

Theorem no_reuse ops : forall w i j k,
  WInv w -> gens_fresh w ops -> (i < j)%nat ->
  nth_error (wrun w ops) i = Some (EHanded k) ->
  nth_error (wrun w ops) j = Some (EHanded k) ->
  exists m, (i < m < j)%nat /\ nth_error (wrun w ops) m = Some (ERestored k).
Proof.
  induction ops as [|o ops IH]; intros w i j k HI Hg Hij Hi Hj; [destruct i; discriminate|].
  destruct Hg as [Hf Hg].
  destruct j as [|j]; [lia|]. cbn in Hj. destruct i as [|i]; cbn in Hi.
  - injection Hi as Hi. apply (out_after_handed w o k HI) in Hi.
    destruct (out_until_restored ops _ _ _ Hg Hi Hj) as (m & Hm & Hnm).
    exists (S m). split; [lia|exact Hnm].
  - destruct (IH _ i j k (wstep_WInv w o HI Hf) Hg ltac:(lia) Hi Hj) as (m & Hm & Hnm).
    exists (S m). split; [lia|exact Hnm].
Qed.

(* the recorded finding: the exhausted-wallet fallback returns a published key, and restoring it lists it as unused *)
Theorem exhausted_restore_refuted : exists w c k2 w4,
  let s1 := hand_out w 10 0 in
  let s2 := hand_out (snd s1) 11 0 in
  let s3 := hand_out (snd s2) 12 c in
  WInv w /\ w_unused w <> [] /\ w_unused (snd s1) <> [] /\
  w_unused (snd s2) = [] /\                       (* exhausted after two hand_outs *)
  fst s2 = Some k2 /\                              (* k2 was handed out (and published) *)
  fst s3 = Some k2 /\ snd s3 = snd s2 /\           (* the fallback returns k2 again and records nothing *)
  restore (snd s3) k2 = Some w4 /\                 (* restore succeeds: k2 is annotated *)
  In k2 (w_unused w4) /\                           (* k2 is now listed as unused *)
  fst (hand_out w4 13 0) = Some k2.                (* and is handed out a third time *)
Proof.
  exists (mkW [1; 2] [1; 2] []), 0%nat, 1, (mkW [1; 2] [1] [(2, 10)]).
  cbv zeta. split.
  { unfold WInv; cbn. repeat split; try tauto; repeat constructor; cbn; intuition congruence. }
  vm_compute. repeat split; try discriminate; auto.
Qed.

Definition run_ops (f : fs) (ops : list fsop) : fs := fold_left fs_apply ops f.

Lemma run_ops_cons f o l : run_ops f (o :: l) = run_ops (fs_apply f o) l.
Proof. reflexivity. Qed.

Lemma run_ops_app f l1 l2 : run_ops f (l1 ++ l2) = run_ops (run_ops f l1) l2.
Proof. apply fold_left_app. Qed.

Lemma fs_get_filter_eq f n : fs_get (filter (fun e => negb (fst e =? n)) f) n = None.
Proof.
  unfold fs_get. induction f as [|e f IH]; [reflexivity|].
  cbn [filter]. destruct (fst e =? n) eqn:E; cbn [negb]; [exact IH|]. cbn [find]. rewrite E. exact IH.
Qed.

Lemma fs_get_del_ne f n m : n <> m -> fs_get (fs_del f n) m = fs_get f m.
Proof.
  intros Hne. unfold fs_get, fs_del. induction f as [|e f IH]; [reflexivity|].
  cbn [filter find]. destruct (N.eqb_spec (fst e) n) as [E|E]; cbn [negb find].
  - destruct (N.eqb_spec (fst e) m); [congruence|exact IH].
  - destruct (fst e =? m); [reflexivity|exact IH].
Qed.

Lemma fs_get_set_eq f n c : fs_get (fs_set f n c) n = Some c.
Proof. unfold fs_get, fs_set. cbn [find fst]. rewrite N.eqb_refl. reflexivity. Qed.

(* fs_set f n c is (n, c) in front of fs_del f n *)
Lemma fs_get_set_ne f n c m : n <> m -> fs_get (fs_set f n c) m = fs_get f m.
Proof.
  intros Hne. unfold fs_set. unfold fs_get at 1. cbn [find fst].
  rewrite (proj2 (N.eqb_neq n m) Hne). apply (fs_get_del_ne f n m Hne).
Qed.

(* operations that touch only the side file leave every other file as it is *)
Definition side_only (side : N) (o : fsop) : Prop :=
  match o with OpenTrunc n | Write n _ | Close n => n = side | Rename _ _ => False end.

Lemma side_only_frame side target f o :
  side <> target -> side_only side o -> fs_get (fs_apply f o) target = fs_get f target.
Proof.
  intros Hne Ho. destruct o as [n|n c|n|s d]; cbn in Ho; try subst n; cbn [fs_apply].
  - apply fs_get_set_ne; exact Hne.
  - apply fs_get_set_ne; exact Hne.
  - reflexivity.
  - destruct Ho.
Qed.

Lemma side_only_run side target l : forall f,
  side <> target -> Forall (side_only side) l -> fs_get (run_ops f l) target = fs_get f target.
Proof.
  induction l as [|o l IH]; intros f Hne Hall; [reflexivity|].
  inversion Hall; subst. rewrite run_ops_cons, IH by auto. apply side_only_frame with side; auto.
Qed.

Lemma writes_content side chunks : forall f c0,
  fs_get f side = Some c0 ->
  fs_get (run_ops f (map (Write side) chunks)) side = Some (c0 ++ concat chunks).
Proof.
  induction chunks as [|c chunks IH]; intros f c0 H.
  - cbn. rewrite app_nil_r. exact H.
  - cbn [map concat]. rewrite run_ops_cons, (IH _ (c0 ++ c)).
    + rewrite app_assoc. reflexivity.
    + cbn [fs_apply]. rewrite H. apply fs_get_set_eq.
Qed.

(* writing the target in place: open(target, 'w'); write chunks; close *)
Definition inplace_ops (target : N) (chunks : list (list N)) : list fsop :=
  OpenTrunc target :: map (Write target) chunks ++ [Close target].

(* the in-place write does reach the new content at the end, for every file system and chunk list *)
Theorem inplace_final target chunks f :
  fs_get (run_ops f (inplace_ops target chunks)) target = Some (concat chunks).
Proof.
  change (inplace_ops target chunks) with ([OpenTrunc target] ++ map (Write target) chunks ++ [Close target]).
  rewrite !run_ops_app.
  (* OpenTrunc leaves the empty file, Close changes nothing *)
  change (fs_get (run_ops (fs_set f target []) (map (Write target) chunks)) target = Some ([] ++ concat chunks)).
  apply writes_content, fs_get_set_eq.
Qed.

Lemma inplace_ops_side_only side chunks : Forall (side_only side) (inplace_ops side chunks).
Proof.
  unfold inplace_ops. constructor; [reflexivity|]. apply Forall_app. split.
  - apply Forall_forall. intros o Ho. apply in_map_iff in Ho. destruct Ho as [c [<- _]]. reflexivity.
  - constructor; [reflexivity|constructor].
Qed.

(* a save writes the side file in place and then renames it over the target *)
Lemma save_ops_split side target chunks :
  save_ops side target chunks = inplace_ops side chunks ++ [Rename side target].
Proof. unfold save_ops, inplace_ops. cbn [app]. rewrite <- app_assoc. reflexivity. Qed.

Lemma save_complete side target chunks f :
  fs_get (run_ops f (save_ops side target chunks)) target = Some (concat chunks).
Proof.
  rewrite save_ops_split, run_ops_app. cbn [run_ops fold_left fs_apply].
  rewrite inplace_final. apply fs_get_set_eq.
Qed.

Lemma save_proper_prefix side target chunks f n :
  side <> target -> (n < length (save_ops side target chunks))%nat ->
  fs_get (run_ops f (firstn n (save_ops side target chunks))) target = fs_get f target.
Proof.
  rewrite save_ops_split, app_length. cbn [length]. intros Hne Hn.
  rewrite firstn_app_le by lia.
  apply side_only_run with side; [exact Hne|]. apply Forall_firstn, inplace_ops_side_only.
Qed.

(* "the target shows the new content only when the prefix is the complete list" — precisely: whenever the new content
   differs from the old state, a prefix showing the new content is the whole list *)
Corollary save_new_only_at_end side target chunks f n :
  side <> target -> fs_get f target <> Some (concat chunks) ->
  fs_get (run_ops f (firstn n (save_ops side target chunks))) target = Some (concat chunks) ->
  firstn n (save_ops side target chunks) = save_ops side target chunks.
Proof.
  intros Hne Hold Hnew.
  destruct (Nat.lt_ge_cases n (length (save_ops side target chunks))) as [Hn|Hn]; [|apply firstn_all2; exact Hn].
  destruct Hold. rewrite <- Hnew. symmetry. apply save_proper_prefix; assumption.
Qed.
