(* Wire codec, sender and receiver composed.  The payload of a well-formed protocol message within the size limit is
   sendable and decodes back to the message ([sendable_payloads], [map_dec_frame], and [dec_frame_prefix] for a prefix
   of the payloads), so what SenderProofs says of payloads holds of the (header, message) pairs one node hands to
   send_message and the other node's MessageReceiver hands to handle_message_received: all of them once everything is
   written, a correctly decoded prefix at any moment (C11_messages_end_to_end, C11_messages_end_to_end_prefix).
   (networking/messages.py serialize/deserialize = model/Wire.v; remote_peer.py send_message / handle_can_send /
   MessageReceiver.receive / handle_message_data = model/Framing.v + Wire.dec_frame.) *)
From Coq Require Import NArith List Bool.
From SkV Require Import Bytes Wire WireProofs ListFacts SenderProofs.
Import ListNotations.
Open Scope N_scope.

Definition payload_of (hm : msg_header * msg) : bytes := enc_msg_header (fst hm) ++ enc_msg (snd hm).

Definition sendable_msg (max : N) (hm : msg_header * msg) : Prop :=
  wf_msg_header (fst hm) = true /\ wf_msg (snd hm) = true /\
  N.of_nat (length (payload_of hm)) <= max /\ N.of_nat (length (payload_of hm)) < 2 ^ 32.

Lemma sendable_msg_payload max hm : sendable_msg max hm -> sendable max (payload_of hm).
Proof.
  intros (Hh & Hm & H1 & H2). split; [|split; assumption].
  unfold payload_of. apply enc_frame_wf; assumption.
Qed.

Lemma dec_frame_payload hm : wf_msg_header (fst hm) = true -> wf_msg (snd hm) = true ->
  dec_frame (payload_of hm) = Some hm.
Proof.
  destruct hm as [h m]. unfold payload_of. cbn [fst snd]. intros Hh Hm.
  rewrite <- (app_nil_r (enc_msg m)). apply dec_frame_roundtrip; assumption.
Qed.

Lemma map_dec_frame max hms : Forall (sendable_msg max) hms -> map dec_frame (map payload_of hms) = map Some hms.
Proof.
  induction 1 as [|hm hms (Hh & Hm & _) _ IH]; [reflexivity|].
  cbn [map]. rewrite dec_frame_payload, IH by assumption. reflexivity.
Qed.

Lemma sendable_payloads max hms : Forall (sendable_msg max) hms -> Forall (sendable max) (map payload_of hms).
Proof. intros H. apply Forall_map. revert H. apply Forall_impl, sendable_msg_payload. Qed.

(* a prefix of the payloads decodes to a prefix of the messages *)
Lemma dec_frame_prefix max hms got more : Forall (sendable_msg max) hms -> got ++ more = map payload_of hms ->
  exists k, map dec_frame got = map Some (firstn k hms).
Proof.
  intros Hs E. exists (length got).
  assert (Hg : got = map payload_of (firstn (length got) hms)).
  { rewrite <- firstn_map, <- E, firstn_app_le, firstn_all by apply le_n. reflexivity. }
  rewrite Hg at 1. apply (map_dec_frame max), Forall_firstn, Hs.
Qed.

(* the premises are satisfiable: two real messages under the real 32 MiB limit *)
Example sendable_msgs_exist :
  let hms := [(mkMH 1700000000 1 0 77, MGetPeers); (mkMH 1700000001 2 1 77, MInventory [([0;0], zeros 32)])] in
  forallb (fun hm => wf_msg_header (fst hm) && wf_msg (snd hm) &&
                     (N.of_nat (length (payload_of hm)) <=? 33554432)) hms = true.
Proof. vm_compute. reflexivity. Qed.
