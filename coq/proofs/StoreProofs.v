(* C08: fidelity of the block store (model/Store.v): what is written is what is read back -- provided no
   transaction id is shared by two written blocks; and the refutation when a transaction id IS shared
   (transaction_locator has PRIMARY KEY transaction hash: the first writer wins).
   The shape of the argument: a sequence of batches writes what its concatenation writes as one batch
   (write_all_concat); one batch of new blocks, parents first, no transaction id present yet, appends the blocks to
   `chain` and their loc_rows to the locator (write_blocks_fresh); a store of that form reads back as the height sort
   of its chain (read_blocks_rows), as does every store whose locator returns each block's own, non-empty list of
   transactions (read_blocks_faithful). *)
From Coq Require Import NArith List Bool Lia Permutation Sorted.
From SkV Require Import Store ListFacts.
Import ListNotations.
Open Scope N_scope.

(* every block's parent is the genesis marker 0 or the id of a block that appears EARLIER in the list *)
Definition parents_precede (l : list sblock) : Prop :=
  forall l1 b l2, l = l1 ++ b :: l2 -> sb_prev b = 0 \/ In (sb_prev b) (map sb_id l1).

Record wf_batchseq (batches : list (list sblock)) : Prop := mkWf {
  wf_parents  : parents_precede (concat batches);                         (* (a) *)
  wf_ids      : NoDup (map sb_id (concat batches));                       (* (b) pairwise distinct ids ... *)
  wf_nonzero  : ~ In 0 (map sb_id (concat batches));                      (* (b) ... and non-zero *)
  wf_nonempty : Forall (fun b => sb_txs b <> []) (concat batches);        (* (c) *)
  wf_txnodup  : Forall (fun b => NoDup (sb_txs b)) (concat batches)       (* (d) *)
}.

(* no transaction id occurs in two different written blocks *)
Definition no_shared_tx (batches : list (list sblock)) : Prop :=
  forall b1 b2 t, In b1 (concat batches) -> In b2 (concat batches) ->
                  In t (sb_txs b1) -> In t (sb_txs b2) -> b1 = b2.

(* (e) heights are parent height + 1 (only needed for "parents are read before their children") *)
Definition heights_consistent (batches : list (list sblock)) : Prop :=
  forall b p, In b (concat batches) -> In p (concat batches) -> sb_prev b = sb_id p ->
              sb_height b = sb_height p + 1.

Fixpoint write_all (s : store) (batches : list (list sblock)) : option store :=
  match batches with
  | [] => Some s
  | bs :: r => match write_blocks s bs with Some s' => write_all s' r | None => None end
  end.

Definition height_le (a b : sblock) : Prop := sb_height a <= sb_height b.
Definition height_sorted (l : list sblock) : Prop := StronglySorted height_le l.
Definition occurs_before {A} (p b : A) (l : list A) : Prop := exists l1 l2 l3, l = l1 ++ p :: l2 ++ b :: l3.

(* the locator rows a block contributes when none of its transaction ids is present yet *)
Definition loc_rows (b : sblock) : list (N * N) := map (fun t => (t, sb_id b)) (sb_txs b).

Lemma NoDup_app_r {A} (l1 l2 : list A) : NoDup (l1 ++ l2) -> NoDup l2.
Proof. intros H. apply NoDup_app_iff in H. apply H. Qed.

Lemma has_row_In c i : has_row c i = true <-> In i (map sb_id c).
Proof. apply existsb_eqb_In_map. Qed.

Lemma has_row_false c i : has_row c i = false <-> ~ In i (map sb_id c).
Proof. rewrite <- has_row_In. now rewrite not_true_iff_false. Qed.

Lemma has_tx_In l t : has_tx l t = true <-> In t (map fst l).
Proof. apply existsb_eqb_In_map. Qed.

Lemma has_tx_false l t : has_tx l t = false <-> ~ In t (map fst l).
Proof. rewrite <- has_tx_In. now rewrite not_true_iff_false. Qed.

(* parents_precede relative to the rows c already there, by recursion the way insert_chain meets the blocks;
   on a concrete list it computes to a proposition that tauto settles *)
Fixpoint parents_precede_from (c bs : list sblock) : Prop :=
  match bs with
  | [] => True
  | b :: r => (sb_prev b = 0 \/ In (sb_prev b) (map sb_id c)) /\ parents_precede_from (c ++ [b]) r
  end.

Lemma parents_precede_from_split : forall bs c,
  parents_precede_from c bs <->
  forall l1 b l2, bs = l1 ++ b :: l2 -> sb_prev b = 0 \/ In (sb_prev b) (map sb_id (c ++ l1)).
Proof.
  induction bs as [|a r IH]; intros c; cbn [parents_precede_from].
  - split; [intros _ [|? ?] ? ? E; discriminate E|trivial].
  - split.
    + intros [Ha Hr] [|x l1] b l2 E; injection E as -> ->.
      * now rewrite app_nil_r.
      * pose proof (proj1 (IH _) Hr l1 b l2 eq_refl) as H. now rewrite <- app_assoc in H.
    + intros H. split.
      * rewrite <- (app_nil_r c). now apply (H [] a r).
      * apply IH. intros l1 b l2 ->. rewrite <- app_assoc. now apply (H (a :: l1) b l2).
Qed.

Lemma parents_precede_from_nil bs : parents_precede bs <-> parents_precede_from [] bs.
Proof. symmetry. apply parents_precede_from_split. Qed.

Lemma parent_test c b :
  (sb_prev b =? 0) || has_row c (sb_prev b) = true <-> sb_prev b = 0 \/ In (sb_prev b) (map sb_id c).
Proof. now rewrite orb_true_iff, N.eqb_eq, has_row_In. Qed.

Lemma insert_chain_app : forall l1 l2 c,
  insert_chain c (l1 ++ l2) = match insert_chain c l1 with Some c' => insert_chain c' l2 | None => None end.
Proof.
  induction l1 as [|b r IH]; intros l2 c; cbn [app insert_chain]; [reflexivity|].
  destruct (has_row c (sb_id b)); [apply IH|].
  destruct ((sb_prev b =? 0) || has_row c (sb_prev b)); [apply IH|reflexivity].
Qed.

Lemma insert_chain_rows : forall bs c c', insert_chain c bs = Some c' -> incl c' (c ++ bs).
Proof.
  induction bs as [|b r IH]; intros c c' H; cbn [insert_chain] in H.
  - injection H as <-. rewrite app_nil_r. apply incl_refl.
  - destruct (has_row c (sb_id b)).
    + intros x Hx. apply (IH _ _ H), in_app_or in Hx. apply in_or_app.
      destruct Hx; [now left|right; now right].
    + destruct (_ || _); [|discriminate H]. apply IH in H. now rewrite <- app_assoc in H.
Qed.

Lemma insert_chain_fresh : forall bs c,
  parents_precede_from c bs -> NoDup (map sb_id (c ++ bs)) -> insert_chain c bs = Some (c ++ bs).
Proof.
  induction bs as [|b r IH]; intros c Hpp Hnd; cbn [insert_chain].
  - now rewrite app_nil_r.
  - destruct Hpp as [Hpar Hr].
    assert (Hb : ~ In (sb_id b) (map sb_id c)).
    { rewrite map_app in Hnd. apply NoDup_remove_2 in Hnd. contradict Hnd. apply in_or_app. now left. }
    rewrite (proj2 (has_row_false _ _) Hb), (proj2 (parent_test _ _) Hpar), IH; auto; now rewrite <- app_assoc.
Qed.

Lemma insert_chain_poisoned pre c bad rest :
  sb_prev bad <> 0 ->
  ~ In (sb_prev bad) (map sb_id (c ++ pre)) -> ~ In (sb_id bad) (map sb_id (c ++ pre)) ->
  insert_chain c (pre ++ bad :: rest) = None.
Proof.
  intros H0 Hp Hi. rewrite insert_chain_app.
  destruct (insert_chain c pre) as [c'|] eqn:E; [|reflexivity].
  assert (Hsub : forall i, ~ In i (map sb_id (c ++ pre)) -> has_row c' i = false).
  { intros i Hn. apply has_row_false. contradict Hn. revert Hn. apply incl_map. now apply insert_chain_rows. }
  cbn [insert_chain]. rewrite (Hsub _ Hi), (Hsub _ Hp). now apply N.eqb_neq in H0 as ->.
Qed.

Lemma insert_locs_fresh : forall txs l bid,
  NoDup (map fst l ++ txs) -> insert_locs l bid txs = l ++ map (fun t => (t, bid)) txs.
Proof.
  induction txs as [|t r IH]; intros l bid Hnd; cbn [insert_locs map].
  - now rewrite app_nil_r.
  - rewrite (proj2 (has_tx_false l t)), IH.
    + now rewrite <- app_assoc.
    + now rewrite map_app, <- app_assoc.
    + apply NoDup_remove_2 in Hnd. contradict Hnd. apply in_or_app. now left.
Qed.

Lemma map_fst_loc_rows b : map fst (loc_rows b) = sb_txs b.
Proof. unfold loc_rows. rewrite map_map. apply map_id. Qed.

Lemma insert_all_locs_app : forall b1 b2 l,
  insert_all_locs l (b1 ++ b2) = insert_all_locs (insert_all_locs l b1) b2.
Proof. induction b1 as [|b r IH]; intros b2 l; cbn; [reflexivity|apply IH]. Qed.

Lemma insert_all_locs_fresh : forall bs l,
  NoDup (map fst l ++ flat_map sb_txs bs) -> insert_all_locs l bs = l ++ flat_map loc_rows bs.
Proof.
  induction bs as [|b r IH]; intros l Hnd; cbn [insert_all_locs flat_map] in *.
  - now rewrite app_nil_r.
  - rewrite app_assoc in Hnd. rewrite insert_locs_fresh, app_assoc by exact (NoDup_app_l _ _ Hnd). apply IH.
    now rewrite map_app, map_fst_loc_rows.
Qed.

Lemma txs_of_app l1 l2 i : txs_of (l1 ++ l2) i = txs_of l1 i ++ txs_of l2 i.
Proof. unfold txs_of. now rewrite filter_app, map_app. Qed.

Lemma txs_of_loc_rows b i : txs_of (loc_rows b) i = if sb_id b =? i then sb_txs b else [].
Proof.
  unfold txs_of, loc_rows. induction (sb_txs b) as [|t r IH]; cbn; [now destruct (_ =? _)|].
  destruct (sb_id b =? i); cbn; now rewrite IH.
Qed.

Lemma txs_of_flat_absent : forall l i, ~ In i (map sb_id l) -> txs_of (flat_map loc_rows l) i = [].
Proof.
  induction l as [|x r IH]; intros i Hn; cbn [flat_map]; [reflexivity|].
  cbn in Hn. rewrite txs_of_app, txs_of_loc_rows, IH by tauto.
  destruct (N.eqb_spec (sb_id x) i); [tauto|reflexivity].
Qed.

Lemma txs_of_flat : forall l b,
  NoDup (map sb_id l) -> In b l -> txs_of (flat_map loc_rows l) (sb_id b) = sb_txs b.
Proof.
  intros l b Hnd Hin. apply in_split in Hin as (l1 & l2 & ->).
  rewrite map_app in Hnd. apply NoDup_remove_2 in Hnd. rewrite in_app_iff in Hnd.
  apply Decidable.not_or in Hnd as [H1 H2].
  rewrite flat_map_app. cbn [flat_map]. rewrite !txs_of_app, txs_of_loc_rows, N.eqb_refl.
  rewrite !txs_of_flat_absent by assumption. apply app_nil_r.
Qed.

Lemma insert_sorted_perm : forall l b, Permutation (insert_sorted b l) (b :: l).
Proof.
  induction l as [|x r IH]; intros b; cbn; [reflexivity|].
  destruct (sb_height b <? sb_height x); [reflexivity|].
  rewrite perm_swap. constructor. apply IH.
Qed.

Lemma sort_by_height_perm l : Permutation (sort_by_height l) l.
Proof.
  unfold sort_by_height. rewrite (Permutation_rev l) at 2.
  induction (rev l) as [|x r IH]; cbn; [constructor|]. rewrite insert_sorted_perm. now constructor.
Qed.

Lemma insert_sorted_sorted : forall l b, height_sorted l -> height_sorted (insert_sorted b l).
Proof.
  unfold height_sorted.
  induction l as [|x r IH]; intros b Hs; cbn [insert_sorted].
  - constructor; constructor.
  - destruct (StronglySorted_inv Hs) as [Hr Hx].
    destruct (N.ltb_spec (sb_height b) (sb_height x)) as [E|E].
    + constructor; [exact Hs|]. constructor; [unfold height_le; lia|].
      eapply Forall_impl; [|exact Hx]. unfold height_le. intros a Ha. lia.
    + constructor; [now apply IH|].
      apply (Permutation_Forall (Permutation_sym (insert_sorted_perm r b))). now constructor.
Qed.

Lemma sort_by_height_sorted l : height_sorted (sort_by_height l).
Proof.
  unfold sort_by_height. induction (rev l) as [|x r IH]; cbn; [constructor|now apply insert_sorted_sorted].
Qed.

Lemma sorted_occurs_before : forall l p b,
  height_sorted l -> In p l -> In b l -> sb_height p < sb_height b -> occurs_before p b l.
Proof.
  intros l p b Hs Hp Hb Hlt. apply in_split in Hb as (l1 & l2 & ->).
  apply in_app_or in Hp as [Hp|[->|Hp]].
  - apply in_split in Hp as (a & c & ->). exists a, c, l2. now rewrite <- app_assoc.
  - lia.
  - (* p after b: sortedness puts b's height at most p's *)
    apply StronglySorted_app_mid in Hs as Hf.
    rewrite Forall_forall in Hf. apply Hf in Hp. unfold height_le in Hp. lia.
Qed.

Lemma read_blocks_faithful s :
  (forall b, In b (st_chain s) -> txs_of (st_locator s) (sb_id b) = sb_txs b /\ sb_txs b <> []) ->
  read_blocks s = sort_by_height (st_chain s).
Proof.
  intros H. unfold read_blocks.
  assert (H' : forall b, In b (sort_by_height (st_chain s)) ->
                         txs_of (st_locator s) (sb_id b) = sb_txs b /\ sb_txs b <> [])
    by (intros b Hb; apply H, (Permutation_in _ (sort_by_height_perm _) Hb)).
  rewrite filter_all.
  - rewrite <- map_id. apply map_ext_in. intros b Hb. destruct (H' b Hb) as [-> _]. now destruct b.
  - apply Forall_forall. intros b Hb. destruct (H' b Hb) as [-> Hn]. now destruct (sb_txs b).
Qed.

Lemma read_blocks_rows c buf :
  NoDup (map sb_id c) -> Forall (fun b => sb_txs b <> []) c ->
  read_blocks (mkStore c (flat_map loc_rows c) buf) = sort_by_height c.
Proof.
  intros Hi Hne. apply read_blocks_faithful. cbn. intros b Hb.
  rewrite Forall_forall in Hne. split; [now apply txs_of_flat|now apply Hne].
Qed.

Lemma write_blocks_app s l1 l2 :
  write_blocks s (l1 ++ l2) = match write_blocks s l1 with Some s' => write_blocks s' l2 | None => None end.
Proof.
  unfold write_blocks. rewrite insert_chain_app, insert_all_locs_app.
  now destruct (insert_chain (st_chain s) l1).
Qed.

(* how the blocks are cut into batches makes no difference to the outcome, failure included: a failed batch fails
   the sequence, and within a batch rows are checked one by one as they are across batches *)
Theorem write_all_concat : forall batches s, write_all s batches = write_blocks s (concat batches).
Proof.
  induction batches as [|bs r IH]; intros s; cbn [write_all concat].
  - now destruct s.
  - rewrite write_blocks_app. destruct (write_blocks s bs); [apply IH|reflexivity].
Qed.

Lemma write_blocks_fresh s bs :
  parents_precede_from (st_chain s) bs -> NoDup (map sb_id (st_chain s ++ bs)) ->
  NoDup (map fst (st_locator s) ++ flat_map sb_txs bs) ->
  write_blocks s bs = Some (mkStore (st_chain s ++ bs) (st_locator s ++ flat_map loc_rows bs) (st_buffer s)).
Proof. intros Hp Hi Ht. unfold write_blocks. now rewrite insert_chain_fresh, insert_all_locs_fresh. Qed.

Theorem write_all_succeeds : forall batches,
  wf_batchseq batches -> exists s, write_all store_empty batches = Some s.
Proof.
  intros batches [Hp Hi _ _ _]. rewrite write_all_concat. unfold write_blocks. cbn [st_chain store_empty].
  rewrite insert_chain_fresh; [eauto | now apply parents_precede_from_nil | exact Hi].
Qed.

(* the round trip. Reading back yields exactly the written blocks (record equality, sb_txs in order): read_blocks
   s IS the stable height sort of the written sequence. *)
Theorem C08_roundtrip_contents : forall batches s,
  wf_batchseq batches -> no_shared_tx batches -> write_all store_empty batches = Some s ->
  st_chain s = concat batches /\ st_locator s = flat_map loc_rows (concat batches) /\ st_buffer s = [] /\
  read_blocks s = sort_by_height (concat batches).
Proof.
  intros batches s [Hp Hi _ Hne Hd] Hns Hw. rewrite write_all_concat, write_blocks_fresh in Hw.
  - injection Hw as <-. repeat split. now apply (read_blocks_rows _ []).
  - now apply parents_precede_from_nil.
  - exact Hi.
  - apply NoDup_flat_map; [now apply NoDup_map_inv in Hi | exact Hd | exact Hns].
Qed.

(* _partial: true only under no_shared_tx (see C08_shared_tx_refuted below) *)
Theorem C08_roundtrip_partial : forall batches s,
  wf_batchseq batches -> no_shared_tx batches -> write_all store_empty batches = Some s ->
  Permutation (read_blocks s) (concat batches) /\ height_sorted (read_blocks s).
Proof.
  intros batches s Hwf Hns Hw. destruct (C08_roundtrip_contents _ _ Hwf Hns Hw) as (_ & _ & _ & ->).
  split; [apply sort_by_height_perm|apply sort_by_height_sorted].
Qed.

Lemma fold_add_to_buffer : forall bs s,
  fold_left add_to_buffer bs s = mkStore (st_chain s) (st_locator s) (st_buffer s ++ bs).
Proof.
  induction bs as [|b r IH]; intros s; cbn [fold_left].
  - rewrite app_nil_r. destruct s; reflexivity.
  - rewrite IH. cbn. rewrite <- app_assoc. reflexivity.
Qed.

(* flush after buffering bs = write_blocks s bs with the buffer emptied; failure iff write_blocks fails *)
Theorem flush_spec : forall s bs,
  st_buffer s = [] ->
  flush (fold_left add_to_buffer bs s) =
  match write_blocks s bs with
  | Some s' => Some (mkStore (st_chain s') (st_locator s') [])
  | None => None
  end.
Proof.
  intros s bs Hb. rewrite fold_add_to_buffer, Hb. cbn [app].
  unfold flush, write_blocks. cbn [st_buffer st_chain st_locator].
  destruct bs as [|b r].
  - cbn. reflexivity.
  - destruct (insert_chain (st_chain s) (b :: r)); reflexivity.
Qed.

Corollary flush_same_contents : forall s bs s',
  st_buffer s = [] -> write_blocks s bs = Some s' ->
  exists s'', flush (fold_left add_to_buffer bs s) = Some s'' /\
              st_chain s'' = st_chain s' /\ st_locator s'' = st_locator s' /\ st_buffer s'' = [] /\
              read_blocks s'' = read_blocks s'.
Proof.
  intros s bs s' Hb Hw. rewrite flush_spec by exact Hb. rewrite Hw.
  eexists. split; [reflexivity|]. repeat split.
Qed.

Corollary flush_fails_iff_write_fails : forall s bs,
  st_buffer s = [] -> (flush (fold_left add_to_buffer bs s) = None <-> write_blocks s bs = None).
Proof.
  intros s bs Hb. rewrite flush_spec by exact Hb.
  destruct (write_blocks s bs); split; intro H; congruence.
Qed.

(* the node's state after calling flush: on failure (exception) nothing changed *)
Definition flush_or_keep (s : store) : store := match flush s with Some s' => s' | None => s end.

Lemma flush_None s : flush s = None <-> st_buffer s <> [] /\ write_blocks s (st_buffer s) = None.
Proof.
  unfold flush. destruct (st_buffer s) as [|b r].
  - split; [discriminate|now intros [[] _]].
  - destruct (write_blocks s (b :: r)).
    + split; [discriminate|now intros [_ H]].
    + split; [intros _; split; [discriminate|reflexivity]|reflexivity].
Qed.

Theorem failed_flush_keeps_buffer : forall s,
  flush s = None ->
  flush_or_keep s = s /\ st_buffer (flush_or_keep s) = st_buffer s /\ st_buffer s <> [] /\
  write_blocks s (st_buffer s) = None.
Proof. intros s H. unfold flush_or_keep. rewrite H. apply flush_None in H. tauto. Qed.

(* a buffered block whose (non-zero) parent is neither on disk nor earlier in the buffer, and which is not
   itself on disk/earlier in the buffer, makes this and every later flush fail, whatever is buffered after it *)
Theorem flush_poisoned : forall s pre bad rest,
  st_buffer s = pre ++ bad :: rest ->
  sb_prev bad <> 0 ->
  ~ In (sb_prev bad) (map sb_id (st_chain s) ++ map sb_id pre) ->
  ~ In (sb_id bad) (map sb_id (st_chain s) ++ map sb_id pre) ->
  forall more, flush (fold_left add_to_buffer more s) = None /\
               flush_or_keep (fold_left add_to_buffer more s) = fold_left add_to_buffer more s.
Proof.
  intros s pre bad rest Hb H0 Hp Hi more. rewrite <- map_app in Hp, Hi.
  assert (F : flush (fold_left add_to_buffer more s) = None).
  { apply flush_None. rewrite fold_add_to_buffer, Hb, <- app_assoc. cbn [st_buffer app]. split.
    - destruct pre; discriminate.
    - unfold write_blocks. cbn [st_chain]. now rewrite insert_chain_poisoned. }
  split; [exact F|]. unfold flush_or_keep. now rewrite F.
Qed.

(* wf_batchseq of a concrete witness: parents_precede_from computes, the rest is distinctness of numerals *)
Ltac solve_wf :=
  constructor; [apply parents_precede_from_nil; cbn; tauto|..]; cbn; repeat constructor; cbn; intuition discriminate.

(* a block is written and not read back (as it was written): what is read is no permutation of what was written *)
Lemma read_back_missing batches l b :
  option_map read_blocks (write_all store_empty batches) = Some l -> In b (concat batches) -> ~ In b l ->
  exists s, write_all store_empty batches = Some s /\ read_blocks s = l /\
            ~ Permutation (read_blocks s) (concat batches).
Proof.
  intros R Hb Hn. destruct (write_all store_empty batches) as [s|]; [|discriminate R].
  injection R as <-. exists s. repeat split. contradict Hn. now apply (Permutation_in _ (Permutation_sym Hn)).
Qed.

Definition shared_tx_batches : list (list sblock) :=
  [ [mkSB 1 0 0 [10]]; [mkSB 2 1 1 [20; 77]]; [mkSB 3 1 1 [30; 77]] ].

Lemma shared_tx_wf : wf_batchseq shared_tx_batches.
Proof. solve_wf. Qed.

(* what is actually read back: block 3 has lost transaction 77 *)
Lemma shared_tx_read :
  option_map read_blocks (write_all store_empty shared_tx_batches) =
  Some [mkSB 1 0 0 [10]; mkSB 2 1 1 [20; 77]; mkSB 3 1 1 [30]].
Proof. vm_compute. reflexivity. Qed.

Theorem C08_shared_tx_refuted :
  exists batches, wf_batchseq batches /\
    exists s, write_all store_empty batches = Some s /\ ~ Permutation (read_blocks s) (concat batches).
Proof.
  exists shared_tx_batches. split; [exact shared_tx_wf|].
  destruct (read_back_missing _ _ (mkSB 3 1 1 [30; 77]) shared_tx_read) as (s & W & _ & P).
  - cbn. tauto.
  - cbn. intuition discriminate.
  - exists s. split; [exact W|exact P].
Qed.

(* two forks whose only transaction is the same one (identical reward transactions) *)
Definition identical_reward_batches : list (list sblock) :=
  [ [mkSB 1 0 0 [10]]; [mkSB 2 1 1 [55]]; [mkSB 3 1 1 [55]] ].

Lemma identical_reward_wf : wf_batchseq identical_reward_batches.
Proof. solve_wf. Qed.

(* block 3 is not returned at all *)
Lemma identical_reward_read :
  option_map read_blocks (write_all store_empty identical_reward_batches) =
  Some [mkSB 1 0 0 [10]; mkSB 2 1 1 [55]].
Proof. vm_compute. reflexivity. Qed.

Theorem C08_identical_reward_refuted :
  exists batches, wf_batchseq batches /\
    exists s, write_all store_empty batches = Some s /\
      ~ Permutation (read_blocks s) (concat batches) /\
      (exists b, In b (concat batches) /\ ~ In (sb_id b) (map sb_id (read_blocks s))).
Proof.
  exists identical_reward_batches. split; [exact identical_reward_wf|].
  destruct (read_back_missing _ _ (mkSB 3 1 1 [55]) identical_reward_read) as (s & W & R & P).
  - cbn. tauto.
  - cbn. intuition discriminate.
  - exists s. split; [exact W|]. split; [exact P|]. exists (mkSB 3 1 1 [55]). rewrite R.
    split; [cbn; tauto|]. cbn. intros [H|[H|[]]]; discriminate H.
Qed.

(* hypothesis (c) is needed as well: a block without transactions is written but never read back *)
Theorem C08_empty_block_refuted :
  exists s, write_all store_empty [[mkSB 1 0 0 []]] = Some s /\
            st_chain s = [mkSB 1 0 0 []] /\ read_blocks s = [].
Proof. eexists. split; [reflexivity|]. split; reflexivity. Qed.
