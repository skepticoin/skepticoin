(* Link between the abstract pending pool of the node state machine (NodeModel / NodeProofs: ids in N, the invariant
   PoolInv) and the concrete pool premises of AssemblyProofs.assembly_valid (lists of transactions).
   The abstract parameters tx_valid_at / tx_conflict are instantiated with the real in-state validator and with
   "the two transactions share a spent reference"; the invariant then yields exactly the four pool premises. *)
From stdpp Require Import gmap.
From Coq Require Import NArith ZArith Lia.
From SkV Require Import Bytes Codec Ledger ChainState Pow Validate ChainDefs NodeModel.
From SkV Require Import ValidProofs NodeProofs AssemblyProofs.

Local Open Scope N_scope.

(* two lists have no common element *)
Definition disjoint_lists {A} (l1 l2 : list A) : Prop := ∀ x, x ∈ l1 → x ∉ l2.

Lemma ForallOrdPairs_cons_inv {A} (R : A → A → Prop) (a : A) (l : list A) :
  ForallOrdPairs R (a :: l) ↔ Forall (R a) l ∧ ForallOrdPairs R l.
Proof.
  split.
  - intros H. by inversion H; subst.
  - intros [H1 H2]. by constructor.
Qed.

Lemma disjoint_concat {A} (l : list A) (ls : list (list A)) :
  disjoint_lists l (concat ls) ↔ Forall (disjoint_lists l) ls.
Proof.
  unfold disjoint_lists. induction ls as [|k ls IH]; cbn [concat].
  - split; [constructor|]. intros _ x _. apply not_elem_of_nil.
  - rewrite Forall_cons, <- IH. split.
    + intros H. split; intros x Hx Hk; apply (H x Hx), elem_of_app; auto.
    + intros [H1 H2] x Hx [Hk|Hk]%elem_of_app; [by apply (H1 x)|by apply (H2 x)].
Qed.

(* NoDup of a concatenation: every piece is duplicate free and the pieces are pairwise disjoint (in order) *)
Lemma NoDup_concat {A} (ls : list (list A)) :
  NoDup (concat ls) ↔ Forall NoDup ls ∧ ForallOrdPairs disjoint_lists ls.
Proof.
  induction ls as [|l ls IH]; cbn [concat].
  - split; [intros _; split; constructor|intros _; constructor].
  - rewrite NoDup_app, Forall_cons, ForallOrdPairs_cons_inv, IH.
    fold (disjoint_lists l (concat ls)). rewrite disjoint_concat. tauto.
Qed.

Lemma ForallOrdPairs_map {A B} (f : A → B) (R : A → A → Prop) (R' : B → B → Prop) (l : list A) :
  (∀ a b, R a b → R' (f a) (f b)) → ForallOrdPairs R l → ForallOrdPairs R' (map f l).
Proof.
  intros Himp. induction l as [|a l IH]; cbn [map]; [constructor|].
  intros [H1 H2]%ForallOrdPairs_cons_inv. apply ForallOrdPairs_cons_inv. split; [|by apply IH].
  clear IH H2. induction H1; cbn [map]; constructor; auto.
Qed.

Section PoolLink.
  Variable sha : bytes → bytes.
  Variable scrypt : bytes → bytes.
  Variable blake : bytes → bytes.
  Variable verify : bytes → bytes → bytes → N.
  Variable P : cparams.
  Variable tx_of : N → tx.          (* the transaction an abstract id stands for *)
  Variable utxo_at : N → utxo.      (* the unspent set (ledger state) at a head id *)

  (* the real in-state validator, as the abstract "valid at this head" oracle *)
  Definition valid_at_real (h t : N) : bool :=
    match v_noncb_in_state verify (utxo_at h) (tx_of t) with Ok _ => true | Err _ => false end.

  (* the two transactions share a spent reference *)
  Definition conflict_real (a b : N) : bool :=
    existsb (λ r, bool_decide (r ∈ tx_refs (tx_of b))) (tx_refs (tx_of a)).

  Lemma valid_at_real_spec h t :
    valid_at_real h t = true ↔ v_noncb_in_state verify (utxo_at h) (tx_of t) = Ok tt.
  Proof.
    unfold valid_at_real. destruct (v_noncb_in_state verify (utxo_at h) (tx_of t)) as [[]|k]; split; done.
  Qed.

  Lemma conflict_real_true a b :
    conflict_real a b = true ↔ ∃ r, r ∈ tx_refs (tx_of a) ∧ r ∈ tx_refs (tx_of b).
  Proof.
    unfold conflict_real. rewrite existsb_exists. split.
    - intros (r & Hr%elem_of_list_In & Hb%bool_decide_eq_true). eauto.
    - intros (r & Hr%elem_of_list_In & Hb). exists r. split; [done|]. by apply bool_decide_eq_true.
  Qed.

  Lemma conflict_real_false a b :
    conflict_real a b = false ↔ disjoint_lists (tx_refs (tx_of a)) (tx_refs (tx_of b)).
  Proof.
    unfold disjoint_lists. rewrite <- not_true_iff_false, conflict_real_true. split.
    - intros H r Ha Hb. apply H. eauto.
    - intros H (r & Ha & Hb). by apply (H r).
  Qed.

  Lemma conflict_real_sym a b : conflict_real a b = conflict_real b a.
  Proof.
    apply eq_true_iff_eq. rewrite !conflict_real_true. split; intros (r & H1 & H2); eauto.
  Qed.

  Theorem pool_premises (s : nstate) :
    PoolInv valid_at_real conflict_real s →
    (* every pooled transaction passed the by-itself check on entering the pool *)
    Forall (λ t, v_noncb_by_itself P (tx_of t) = Ok tt) (ns_pool s) →
    (* abstract ids are the transaction ids: distinct abstract ids stand for transactions with distinct ids *)
    (∀ a b, In a (ns_pool s) → In b (ns_pool s) → tx_id sha (tx_of a) = tx_id sha (tx_of b) → a = b) →
    let others := map tx_of (ns_pool s) in
    Forall (λ t, v_noncb_by_itself P t = Ok tt) others ∧
    Forall (λ t, v_noncb_in_state verify (utxo_at (ns_head s)) t = Ok tt) others ∧
    nodup_keys [] (concat (map tx_refs others)) = true ∧
    nodup_bytes [] (map (tx_id sha) others) = true.
  Proof.
    intros (Hvalid & Hnd & Hconf) Hself Hinj others. subst others.
    split; [|split; [|split]].
    - by apply Forall_fmap.
    - apply Forall_fmap. eapply Forall_impl; [exact Hvalid|]. cbn beta. intros t Ht.
      by apply valid_at_real_spec.
    - apply nodup_keys_nil, NoDup_concat. split.
      + apply Forall_fmap, Forall_fmap. eapply Forall_impl; [exact Hself|]. cbn. intros t Ht.
        by apply v_noncb_by_itself_ok in Ht as (_ & _ & _ & Ht & _).
      + rewrite map_map. eapply ForallOrdPairs_map; [|exact Hconf].
        cbn beta. intros a b Hab. by apply conflict_real_false.
    - apply nodup_bytes_nil. rewrite map_map. apply (NoDup_fmap_2_strong (λ t, tx_id sha (tx_of t))).
      + intros x y Hx%elem_of_list_In Hy%elem_of_list_In. by apply Hinj.
      + by apply NoDup_ListNoDup.
  Qed.

  (* assembly_valid with its four pool premises replaced by the node's pool invariant *)
  Theorem assembly_from_pool_invariant (ns : nstate) s others pk ts data nonce b now cur prev u :
    construct_block_for_mining sha scrypt blake P s others pk ts data nonce = Some b →
    cs_cur s = Some cur → cs_blocks s !! cur = Some prev → cs_utxo s !! cur = Some u →
    is_zero32 cur = false →
    (* the node's pool invariant, for the concrete validators, and the tie between the two levels *)
    PoolInv valid_at_real conflict_real ns →
    Forall (λ t, v_noncb_by_itself P (tx_of t) = Ok tt) (ns_pool ns) →
    (∀ a b, In a (ns_pool ns) → In b (ns_pool ns) → tx_id sha (tx_of a) = tx_id sha (tx_of b) → a = b) →
    u = utxo_at (ns_head ns) →
    others = map tx_of (ns_pool ns) →
    (* sizes, clock, nonce, checkpoint horizon: as in assembly_valid *)
    N.of_nat (length (enc_block b)) <= p_max_block P → N.of_nat (length data) <= p_max_cbdata P →
    b_time prev < ts → ts <= now + p_max_future P →
    bytes_ltb (block_id sha b) (b_target b) = true → FV P b →
    ∃ s', add_block sha scrypt blake verify P s b now = Ok s'.
  Proof.
    intros Hcons Hcur Hprev Hu Hz Hinv Hself Hinj -> -> Hsize Hdata Htime Hfut Hpow Hfv.
    destruct (pool_premises ns Hinv Hself Hinj) as (H1 & H2 & H3 & H4).
    eapply assembly_valid; eauto.
  Qed.
End PoolLink.

(* The invariant is maintained by every step of the node for the concrete instance (the symmetry hypothesis of
   NodeProofs is discharged by conflict_real_sym). *)
Corollary pool_inv_step_real skip verify tx_of utxo_at s e s' o :
  PoolInv (valid_at_real verify tx_of utxo_at) (conflict_real tx_of) s →
  step skip (valid_at_real verify tx_of utxo_at) (conflict_real tx_of) s e = (s', o) →
  PoolInv (valid_at_real verify tx_of utxo_at) (conflict_real tx_of) s'.
Proof. apply pool_inv_step_strong. apply conflict_real_sym. Qed.
