(* Block assembly (consensus.py construct_block_for_mining / construct_coinbase, model/Validate.v) against the node's
   own full validation (CoinState.add_block = v_block_by_itself ; v_block_in_state ; add_nv):
   every candidate the node assembles on its current head from an admissible pending pool passes the node's own
   validation as soon as the nonce is good.  construct_block_for_mining_inv says what an assembled candidate consists
   of (the reward output is exactly subsidy + fees, the header fields are the prescribed ones).
   [sha scrypt blake verify] are arbitrary functions. *)
From stdpp Require Import gmap.
From Coq Require Import NArith ZArith Lia.
From SkV Require Import Bytes Codec ChainState Pow Validate ChainDefs.
From SkV Require Import BytesProofs ReplayProofs BalanceProofs ValidProofs.
Open Scope N_scope.

(* the two spellings of "the references a list of transactions consumes" *)
Lemma txs_in_keys_refs (ts : list tx) : txs_in_keys ts = concat (map tx_refs ts).
Proof.
  induction ts as [|t r IH]; cbn [txs_in_keys map concat]; [done|]. rewrite IH. done.
Qed.

Section Assembly.
  Variable sha : bytes -> bytes.
  Variable scrypt : bytes -> bytes.
  Variable blake : bytes -> bytes.
  Variable verify : bytes -> bytes -> bytes -> N.
  Variable P : cparams.

  (* the reward transaction construct_coinbase produces *)
  Definition reward_tx (height : N) (data pk : bytes) (fees : Z) : tx :=
    mkTx [mkInput (mkOutref (zeros 32) 0) (SigCoinbase height data)]
         [mkOutput (Z.to_N (Z.of_N (get_block_subsidy P height) + fees)) pk].

  Lemma construct_coinbase_inv height others u data pk cb :
    construct_coinbase P height others u data pk = Some cb ->
    exists fees, block_fees u others = Some fees /\
                 (0 <= Z.of_N (get_block_subsidy P height) + fees)%Z /\
                 cb = reward_tx height data pk fees.
  Proof.
    unfold construct_coinbase. destruct (block_fees u others) as [fees|]; [|discriminate].
    cbv zeta. destruct (Z.ltb_spec (Z.of_N (get_block_subsidy P height) + fees) 0) as [Hlt|Hge]; [discriminate|].
    intros [= <-]. exists fees. done.
  Qed.

  Lemma construct_block_for_mining_inv s others pk ts data nonce b :
    construct_block_for_mining sha scrypt blake P s others pk ts data nonce = Some b ->
    exists cur prev u fees mr tg ev,
      let h := b_height prev + 1 in
      let cb := reward_tx h data pk fees in
      let sm := mkSummary h cur mr ts tg nonce in
      cs_cur s = Some cur /\ cs_blocks s !! cur = Some prev /\ cs_utxo s !! cur = Some u /\
      block_fees u others = Some fees /\ (0 <= Z.of_N (get_block_subsidy P h) + fees)%Z /\
      merkle_root_of sha (cb :: others) = Some mr /\
      calc_target sha P s h ts prev = Some tg /\
      construct_evidence sha scrypt blake P s sm h (cb :: others) = Some ev /\
      b = mkBlock (mkHeader sm ev) (cb :: others).
  Proof.
    unfold construct_block_for_mining, cs_head.
    destruct (cs_cur s) as [cur|] eqn:Hcur; [|discriminate].
    destruct (cs_blocks s !! cur) as [prev|] eqn:Hprev; [|discriminate].
    cbv zeta.
    destruct (cs_utxo s !! cur) as [u|] eqn:Hu; [|discriminate].
    destruct (construct_coinbase _ _ _ _ _ _) as [cb|] eqn:Hcb; [|discriminate].
    apply construct_coinbase_inv in Hcb as (fees & Hfees & Hnn & ->).
    destruct (merkle_root_of _ _) as [mr|] eqn:Hmr; [|discriminate].
    destruct (calc_target _ _ _ _ _ _) as [tg|] eqn:Htg; [|discriminate].
    destruct (construct_evidence _ _ _ _ _ _ _ _) as [ev|] eqn:Hev; [|discriminate].
    intros [= <-]. exists cur, prev, u, fees, mr, tg, ev. cbv zeta. done.
  Qed.

  Lemma reward_tx_by_itself height data pk fees :
    N.of_nat (length data) <= p_max_cbdata P -> v_cb_by_itself P (reward_tx height data pk fees) = Ok tt.
  Proof.
    intros Hdata%N.leb_le. unfold v_cb_by_itself, thin_air. cbn [reward_tx tx_inputs in_ref in_sig or_hash or_index].
    by rewrite bytes_eqb_refl, Hdata.
  Qed.

  (* the evidence of a non-genesis block can only be built when the by-height index of the parent exists *)
  Lemma construct_evidence_byheight s sm h txs ev :
    construct_evidence sha scrypt blake P s sm h txs = Some ev -> h <> 0 ->
    is_Some (cs_byheight s !! s_prev sm).
  Proof.
    unfold construct_evidence. intros H Hne.
    destruct (2 ^ 64 <=? h); [discriminate|]. cbv zeta in H.
    destruct (N.eqb_spec h 0) as [->|_]; [done|].
    destruct (cs_byheight s !! s_prev sm); [eauto|discriminate].
  Qed.

  (* pool transactions that validate against [u] only consume outputs present in [u] *)
  Lemma pool_inputs_present u others :
    Forall (fun t => v_noncb_in_state verify u t = Ok tt) others ->
    Forall (fun k => is_Some (u !! k)) (txs_in_keys others).
  Proof.
    induction 1 as [|t r Ht _ IH]; cbn [txs_in_keys]; [constructor|].
    apply Forall_app. split; [|done].
    apply v_noncb_in_state_ok in Ht as [Hall _]. unfold tx_in_keys. apply Forall_fmap.
    eapply Forall_impl; [exact Hall|]. cbn beta. intros i (o & sg & Ho & _). unfold compose, in_key. eauto.
  Qed.

  Theorem assembly_valid s others pk ts data nonce b now cur prev u :
    construct_block_for_mining sha scrypt blake P s others pk ts data nonce = Some b ->
    (* the state the candidate is built on.  The first three only NAME the head id, the head block and its unspent
       set (construct_block_for_mining having succeeded already implies that all three lookups succeed). *)
    cs_cur s = Some cur -> cs_blocks s !! cur = Some prev -> cs_utxo s !! cur = Some u ->
    (* the head's id is not the all-zero string: add_nv treats a block whose prev is 32 zero bytes as a genesis
       block and applies it to the EMPTY unspent set.  Holds in every reachable state unless sha produces 32 zero
       bytes on a stored header (a hash preimage of zero). *)
    is_zero32 cur = false ->
    (* the pending pool is admissible (C13's invariant), relative to the head's unspent set *)
    Forall (fun t => v_noncb_by_itself P t = Ok tt) others ->
    Forall (fun t => v_noncb_in_state verify u t = Ok tt) others ->
    nodup_keys [] (concat (map tx_refs others)) = true ->
    nodup_bytes [] (map (tx_id sha) others) = true ->
    (* sizes: the miner fills the block up to the limit and chooses short reward data *)
    N.of_nat (length (enc_block b)) <= p_max_block P -> N.of_nat (length data) <= p_max_cbdata P ->
    (* clock: the candidate's time stamp is later than the head's and not too far ahead of the validating clock *)
    b_time prev < ts -> ts <= now + p_max_future P ->
    (* the nonce was good, and we are above the checkpoint horizon *)
    bytes_ltb (block_id sha b) (b_target b) = true -> FV P b ->
    exists s', add_block sha scrypt blake verify P s b now = Ok s'.
  Proof.
    intros Hcons Hcur Hprev Hu Hz Hself Hstate Hndk%nodup_keys_nil Hndb%nodup_bytes_nil Hsize Hdata Htime Hfut Hpow Hfv.
    apply construct_block_for_mining_inv in Hcons
      as (cur' & prev' & u' & fees & mr & tg & ev & Hc & Hp & Hu' & Hfees & Hnn & Hmr & Htg & Hev & ->).
    cbv zeta in *. rewrite Hcur in Hc. injection Hc as <-. rewrite Hprev in Hp. injection Hp as <-.
    rewrite Hu in Hu'. injection Hu' as <-.
    set (h := b_height prev + 1) in *. set (cb := reward_tx h data pk fees) in *.
    set (b := mkBlock _ _) in *.
    assert (is_Some (add_nv sha s b)) as [s' Hnv].
    { assert (h <> 0) as Hne by (unfold h; lia).
      destruct (construct_evidence_byheight _ _ _ _ _ Hev Hne) as [m Hm].
      eapply add_nv_succeeds; [done..|]. apply uto_apply_block_succeeds; cbn [b b_txs tail].
      - done.
      - by apply pool_inputs_present.
      - by rewrite txs_in_keys_refs. }
    exists s'. apply add_block_ok. split; [|split; [|done]].
    - eapply v_block_by_itself_ok; [done|].
      do 3 (split; [done|]). split; [by apply reward_tx_by_itself|]. by repeat split.
    - apply v_block_in_state_above; [done|]. exists prev, cb, others, u, fees.
      do 8 (split; [done|]). split; [|done].
      cbn [tx_outputs cb reward_tx sum_outputs fold_right out_value]. change (b_height b) with h. lia.
  Qed.
End Assembly.

