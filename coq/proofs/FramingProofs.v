(* The stream de-framer (networking/remote_peer.py MessageReceiver.receive, model/Framing.v) refines the declarative
   grammar [parse_stream] of the byte stream for EVERY fragmentation of that stream into read chunks.

   A byte string has one of four shapes ([shape]): too short for a magic, a wrong magic, a magic with less than a
   length field behind it, or magic + length field + rest.  The grammar ([parse_short] ... [parse_hdr]) and the
   receive loop ([loopA_short] ... [loopC]) are each characterised by one equation per shape.  From these:
   [parse_app_eq] (the grammar is prefix-monotone), [rewind] and [loop_spec] (the loop from any live state),
   [receive_spec] (one call), [feed_refines] (a whole connection) and its corollaries. *)
From Coq Require Import NArith List Lia Arith ZifyBool.
From SkV Require Import Bytes Framing BytesProofs ListFacts.
Import ListNotations.
Open Scope N_scope.

Lemma MAGIC_wf : bytes_wf MAGIC.
Proof. repeat constructor. Qed.

Inductive shape : bytes -> Prop :=
| shape_short a : (length a < 4)%nat -> shape a
| shape_bad a : (4 <= length a)%nat -> bytes_eqb (firstn 4 a) MAGIC = false -> shape a
| shape_magic r : (length r < 4)%nat -> shape (MAGIC ++ r)
| shape_hdr h p : length h = 4%nat -> shape (MAGIC ++ h ++ p).

Lemma shape_all a : shape a.
Proof.
  destruct (Nat.lt_ge_cases (length a) 4) as [H|H]; [apply shape_short, H|].
  destruct (bytes_eqb (firstn 4 a) MAGIC) eqn:E; [|apply shape_bad; assumption].
  apply bytes_eqb_eq in E. rewrite <- (firstn_skipn 4 a), E.
  destruct (Nat.lt_ge_cases (length (skipn 4 a)) 4) as [H'|H']; [apply shape_magic, H'|].
  rewrite <- (firstn_skipn 4 (skipn 4 a)). apply shape_hdr. rewrite firstn_length. lia.
Qed.

Section Proofs.
  Variable max : N.

  (* any fuel not below the length will do.  The string of the recursive call has length [length bs - 8 - n] whether
     or not the call is reached, so the fuel can be exchanged there before any of the tests is looked at. *)
  Lemma parse_fuel f1 : forall f2 bs, (length bs <= f1)%nat -> (length bs <= f2)%nat ->
    parse max f1 bs = parse max f2 bs.
  Proof.
    induction f1 as [|f1 IH]; intros f2 bs H1 H2.
    - destruct bs; [destruct f2; reflexivity | inversion H1].
    - destruct f2 as [|f2]; [destruct bs; [reflexivity | inversion H2]|].
      cbn [parse]. rewrite (IH f2) by (rewrite !skipn_length; lia). reflexivity.
  Qed.

  Lemma parse_enough f bs : (length bs <= f)%nat -> parse max f bs = parse_stream max bs.
  Proof. intros H. apply parse_fuel; [exact H | apply Nat.le_succ_diag_r]. Qed.

  Lemma parse_short bs : (length bs < 4)%nat -> parse_stream max bs = ([], None, bs).
  Proof. intros H. unfold parse_stream. cbn [parse]. apply Nat.ltb_lt in H. rewrite H. reflexivity. Qed.

  Lemma parse_badmagic bs : (4 <= length bs)%nat -> bytes_eqb (firstn 4 bs) MAGIC = false ->
    parse_stream max bs = ([], Some BadMagic, bs).
  Proof. intros H Hm. unfold parse_stream. cbn [parse]. apply Nat.ltb_ge in H. rewrite H, Hm. reflexivity. Qed.

  Lemma parse_magic_short r : (length r < 4)%nat -> parse_stream max (MAGIC ++ r) = ([], None, MAGIC ++ r).
  Proof. destruct r as [|a [|b [|c [|d r]]]]; cbn [length]; intros H; [reflexivity..|lia]. Qed.

  Lemma parse_hdr h p : length h = 4%nat -> parse_stream max (MAGIC ++ h ++ p) =
    if max <? be_dec h then ([], Some TooLong, MAGIC ++ h ++ p)
    else if (length p <? N.to_nat (be_dec h))%nat then ([], None, MAGIC ++ h ++ p)
    else let '(fs, e, rest) := parse_stream max (skipn (N.to_nat (be_dec h)) p) in
         (firstn (N.to_nat (be_dec h)) p :: fs, e, rest).
  Proof.
    intros H. rewrite <- (parse_enough (length (MAGIC ++ h ++ p)) (skipn _ p))
      by (rewrite skipn_length, !app_length; lia).
    (* the fuel is made a variable before [h] becomes four bytes: with the concrete length in its place the kernel
       unfolds [parse] once per unit of it *)
    unfold parse_stream. generalize (length (MAGIC ++ h ++ p)). intros f.
    destruct h as [|a [|b [|c [|d [|]]]]]; try discriminate. reflexivity.
  Qed.

  (* the grammar is prefix-monotone: more bytes only extend the parse at its unconsumed tail *)
  Lemma parse_app_eq a b : parse_stream max (a ++ b) =
    let '(fs, e, r) := parse_stream max a in
    match e with
    | None => let '(fs', e', r') := parse_stream max (r ++ b) in (fs ++ fs', e', r')
    | Some err => (fs, Some err, r ++ b)
    end.
  Proof.
    induction a as [a IH] using (induction_ltof1 _ (@length N)). unfold ltof in IH.
    destruct (shape_all a) as [a H|a H Hm|r H|h p H].
    - (* the parse of a is ([], None, a): both sides are the parse of a ++ b *)
      rewrite (parse_short a) by exact H. destruct (parse_stream max _) as [[fs' e'] r']; reflexivity.
    - rewrite (parse_badmagic a) by assumption. apply parse_badmagic.
      + rewrite app_length. lia.
      + rewrite firstn_app_le by exact H. exact Hm.
    - rewrite (parse_magic_short r) by exact H. destruct (parse_stream max _) as [[fs' e'] r']; reflexivity.
    - rewrite (parse_hdr h p) by exact H. set (n := N.to_nat (be_dec h)).
      destruct (max <? be_dec h) eqn:Em; [|destruct (Nat.ltb_spec (length p) n) as [Hp|Hp]].
      + rewrite <- !app_assoc, parse_hdr, Em by exact H. reflexivity.
      + destruct (parse_stream max _) as [[fs' e'] r']; reflexivity.
      + rewrite <- !app_assoc, parse_hdr, Em by exact H. fold n.
        replace (length (p ++ b) <? n)%nat with false by (rewrite app_length; lia).
        rewrite skipn_app_le, firstn_app_le by exact Hp.
        rewrite (IH (skipn n p)) by (rewrite skipn_length, !app_length; lia).
        destruct (parse_stream max (skipn n p)) as [[fs e] r]. destruct e; [reflexivity|].
        destruct (parse_stream max (r ++ b)) as [[fs' e'] r']. reflexivity.
  Qed.

  Theorem parse_app a b fs e r :
    parse_stream max a = (fs, e, r) ->
    parse_stream max (a ++ b) =
      match e with
      | None => let '(fs', e', r') := parse_stream max (r ++ b) in (fs ++ fs', e', r')
      | Some err => (fs, Some err, r ++ b)
      end.
  Proof. intros H. rewrite parse_app_eq, H. reflexivity. Qed.

  (* the unconsumed tail of an un-refused stream is itself a stream with no complete frame and no refusal *)
  Theorem parse_rest_stuck a fs r :
    parse_stream max a = (fs, None, r) -> parse_stream max r = ([], None, r).
  Proof.
    intros H. pose proof (parse_app a [] fs None r H) as Ha. rewrite !app_nil_r in Ha. rewrite H in Ha.
    destruct (parse_stream max r) as [[fs' e'] r']. injection Ha as H1 H2 H3. subst e' r'.
    rewrite <- (app_nil_r fs) in H1 at 1. apply app_inv_head in H1. subst fs'. reflexivity.
  Qed.

  (* the states a live connection can be in: nothing known (A), magic read (B), magic and length read (C).
     After a TooLong refusal the state is none of these, but then the connection is closed. *)
  Inductive Inv : rstate -> Prop :=
  | InvA buf : bytes_wf buf -> Inv (mkR buf false None)
  | InvB buf : bytes_wf buf -> Inv (mkR buf true None)
  | InvC buf n : bytes_wf buf -> n <= max -> n < 2 ^ 32 -> Inv (mkR buf true (Some n)).

  Lemma Inv_init : Inv r_init.
  Proof. apply InvA. constructor. Qed.

  Lemma loopA_short f bs : (length bs < 4)%nat ->
    recv_loop max (S f) (mkR bs false None) = (mkR bs false None, [], None).
  Proof. destruct bs as [|a [|b [|c [|d bs]]]]; cbn [length]; intros H; [reflexivity..|lia]. Qed.

  Lemma loopA_bad f bs : (4 <= length bs)%nat -> bytes_eqb (firstn 4 bs) MAGIC = false ->
    recv_loop max (S f) (mkR bs false None) = (mkR bs false None, [], Some BadMagic).
  Proof.
    intros H Hm. cbn [recv_loop r_magic r_len r_buf negb andb]. apply Nat.leb_le in H. rewrite H, Hm. reflexivity.
  Qed.

  Lemma loopA_magic f r : recv_loop max (S f) (mkR (MAGIC ++ r) false None) = recv_loop max (S f) (mkR r true None).
  Proof. reflexivity. Qed.

  Lemma loopB_short f r : (length r < 4)%nat -> recv_loop max (S f) (mkR r true None) = (mkR r true None, [], None).
  Proof. destruct r as [|a [|b [|c [|d r]]]]; cbn [length]; intros H; [reflexivity..|lia]. Qed.

  Lemma loopB_hdr f h p : length h = 4%nat -> recv_loop max (S f) (mkR (h ++ p) true None) =
    if max <? be_dec h then (mkR (h ++ p) true (Some (be_dec h)), [], Some TooLong)
    else recv_loop max (S f) (mkR p true (Some (be_dec h))).
  Proof.
    destruct h as [|a [|b [|c [|d [|]]]]]; try discriminate. intros _.
    cbn [recv_loop r_magic r_len r_buf negb andb app length Nat.leb firstn skipn].
    destruct (max <? be_dec [a; b; c; d]); reflexivity.
  Qed.

  Lemma loopC f p n : recv_loop max (S f) (mkR p true (Some n)) =
    if (N.to_nat n <=? length p)%nat then
      let '(st', fs, e) := recv_loop max f (mkR (skipn (N.to_nat n) p) false None) in
      (st', firstn (N.to_nat n) p :: fs, e)
    else (mkR p true (Some n), [], None).
  Proof. reflexivity. Qed.

  (* a live state acts exactly as the initial state would with the bytes it stands for in the buffer *)
  Lemma rewind f st : Inv st -> recv_loop max (S f) st = recv_loop max (S f) (mkR (pending st) false None).
  Proof.
    intros [buf _|buf _|buf n _ Hmax H32]; [reflexivity | symmetry; apply loopA_magic |].
    change (pending (mkR buf true (Some n))) with (MAGIC ++ be_enc 4 n ++ buf).
    rewrite loopA_magic, loopB_hdr by apply be_enc_length. rewrite be_dec_enc by (rewrite pow256_4; exact H32).
    replace (max <? n) with false by lia. reflexivity.
  Qed.

  Lemma pending_wf st : Inv st -> bytes_wf (pending st).
  Proof.
    intros [buf H|buf H|buf n H _ _]; unfold pending; cbn [r_buf r_magic r_len app].
    - exact H.
    - apply bytes_wf_app. split; [apply MAGIC_wf | exact H].
    - apply bytes_wf_app. split; [apply MAGIC_wf|]. apply bytes_wf_app. split; [apply be_enc_wf | exact H].
  Qed.

  Lemma pending_length st : (length (pending st) <= length (r_buf st) + 8)%nat.
  Proof.
    unfold pending. destruct (r_magic st), (r_len st); rewrite ?app_length, ?be_enc_length; cbn [length MAGIC]; lia.
  Qed.

  Lemma pending_app st d : pending (mkR (r_buf st ++ d) (r_magic st) (r_len st)) = pending st ++ d.
  Proof. unfold pending. cbn [r_buf r_magic r_len]. rewrite <- !app_assoc. reflexivity. Qed.

  (* what one run of the loop achieves with respect to the stream [s] the start state stands for *)
  Definition post (s : bytes) (res : rstate * list bytes * option rerr) : Prop :=
    let '(st', fs, e) := res in
    match e with
    | None => Inv st' /\ parse_stream max s = (fs, None, pending st')
    | Some err => exists r, parse_stream max s = (fs, Some err, r)
    end.

  (* the loop from state A; a frame takes at least 8 bytes, whence the fuel *)
  Lemma loop_spec : forall f bs, bytes_wf bs -> (length bs < 8 * f + 4)%nat ->
    post bs (recv_loop max f (mkR bs false None)).
  Proof.
    induction f as [|f IH]; intros bs Hwf Hf.
    { split; [apply InvA, Hwf | apply (parse_short bs); lia]. }
    destruct (shape_all bs) as [a H|a H Hm|r H|h p H].
    - rewrite loopA_short by exact H. split; [apply InvA, Hwf | apply (parse_short a), H].
    - rewrite loopA_bad by assumption. exists a. apply parse_badmagic; assumption.
    - rewrite loopA_magic, loopB_short by exact H. apply bytes_wf_app in Hwf as [_ Hr].
      split; [apply InvB, Hr | apply parse_magic_short, H].
    - apply bytes_wf_app in Hwf as [_ Hwf]. apply bytes_wf_app in Hwf as [Hh Hp].
      rewrite loopA_magic, loopB_hdr, loopC by exact H. unfold post. rewrite parse_hdr by exact H.
      destruct (max <? be_dec h) eqn:Em; [eexists; reflexivity|].
      set (n := N.to_nat (be_dec h)). rewrite Nat.ltb_antisym. destruct (n <=? length p)%nat eqn:El; cbn [negb].
      + assert (IHp : post (skipn n p) (recv_loop max f (mkR (skipn n p) false None))).
        { apply IH; [apply bytes_wf_skipn, Hp|].
          rewrite skipn_length. rewrite !app_length in Hf. cbn [length MAGIC] in Hf. lia. }
        destruct (recv_loop max f (mkR (skipn n p) false None)) as [[st' fs] e]. unfold post in IHp.
        destruct e as [err|].
        * destruct IHp as [r0 ->]. eexists. reflexivity.
        * destruct IHp as [HI ->]. split; [exact HI|reflexivity].
      + split.
        * apply InvC; [exact Hp | lia |]. rewrite <- pow256_4, <- H. apply be_dec_bound, Hh.
        * unfold pending. cbn [r_buf r_magic r_len]. rewrite be_enc_dec_w by assumption. reflexivity.
  Qed.

  Theorem receive_spec st d : Inv st -> bytes_wf d -> post (pending st ++ d) (receive max st d).
  Proof.
    intros HI Hd. unfold receive. rewrite <- pending_app. set (st0 := mkR (r_buf st ++ d) (r_magic st) (r_len st)).
    assert (HI0 : Inv st0) by (destruct HI; constructor; try apply bytes_wf_app; auto).
    rewrite rewind by exact HI0. apply loop_spec; [apply pending_wf, HI0|].
    pose proof (pending_length st0). lia.
  Qed.

  (* a whole connection, from any live state that holds no complete frame *)
  Theorem feed_refines : forall chunks st, Inv st -> parse_stream max (pending st) = ([], None, pending st) ->
    Forall bytes_wf chunks ->
    fst (feed max st chunks) = fst (parse_stream max (pending st ++ concat chunks)) /\
    (snd (fst (feed max st chunks)) = None ->
     pending (snd (feed max st chunks)) = snd (parse_stream max (pending st ++ concat chunks))).
  Proof.
    induction chunks as [|c cs IH]; intros st HI Hstuck Hwf; cbn [feed concat].
    { rewrite app_nil_r, Hstuck. split; reflexivity. }
    apply Forall_cons_iff in Hwf as [Hc Hcs].
    rewrite app_assoc, parse_app_eq. pose proof (receive_spec st c HI Hc) as Hr.
    destruct (receive max st c) as [[st1 fs1] [err|]]; unfold post in Hr.
    - destruct Hr as [r ->]. split; [reflexivity | discriminate].
    - destruct Hr as [HI1 Hr]. rewrite Hr.
      destruct (IH st1 HI1 (parse_rest_stuck _ _ _ Hr) Hcs) as [IH1 IH2].
      destruct (feed max st1 cs) as [[fs2 e2] st2].
      destruct (parse_stream max (pending st1 ++ concat cs)) as [[fs' e'] rest]. cbn [fst snd] in *.
      injection IH1 as -> ->. split; [reflexivity | exact IH2].
  Qed.

  Corollary feed_init chunks : Forall bytes_wf chunks ->
    fst (feed max r_init chunks) = fst (parse_stream max (concat chunks)) /\
    (snd (fst (feed max r_init chunks)) = None ->
     pending (snd (feed max r_init chunks)) = snd (parse_stream max (concat chunks))).
  Proof. exact (feed_refines chunks r_init Inv_init eq_refl). Qed.

  Theorem feed_spec : forall chunks, Forall bytes_wf chunks ->
    let '(fs, e, st) := feed max r_init chunks in
    let '(fs', e', rest) := parse_stream max (concat chunks) in
    fs = fs' /\ e = e' /\ (e = None -> pending st = rest).
  Proof.
    intros chunks Hwf. destruct (feed_init chunks Hwf) as [H1 H2].
    destruct (feed max r_init chunks) as [[fs e] st], (parse_stream max (concat chunks)) as [[fs' e'] rest].
    cbn [fst snd] in *. injection H1 as -> ->. auto.
  Qed.

  (* two chunkings of one stream leave receiver states that stand for the same bytes (that they deliver the same
     frames and refuse alike is C11_chunking) *)
  Corollary chunking_independent_pending : forall c1 c2, Forall bytes_wf c1 -> Forall bytes_wf c2 ->
    concat c1 = concat c2 -> snd (fst (feed max r_init c1)) = None ->
    pending (snd (feed max r_init c1)) = pending (snd (feed max r_init c2)).
  Proof.
    intros c1 c2 H1 H2 Hc He. apply feed_init in H1 as [E1 P1], H2 as [E2 P2]. rewrite Hc in *.
    rewrite P1, P2; [reflexivity | | exact He]. rewrite E2, <- E1. exact He.
  Qed.

  Corollary one_shot : forall bs, bytes_wf bs ->
    let '(fs, e, st) := feed max r_init [bs] in
    let '(fs', e', rest) := parse_stream max bs in
    fs = fs' /\ e = e' /\ (e = None -> pending st = rest).
  Proof.
    intros bs Hwf. pose proof (feed_spec [bs] (Forall_cons _ Hwf (Forall_nil _))) as F.
    cbn [concat] in F. rewrite app_nil_r in F. exact F.
  Qed.

  Corollary one_shot_bytewise : forall bs, bytes_wf bs ->
    let '(fs, e, st) := feed max r_init (map (fun b => [b]) bs) in
    let '(fs', e', rest) := parse_stream max bs in
    fs = fs' /\ e = e' /\ (e = None -> pending st = rest).
  Proof.
    intros bs Hwf. assert (H : Forall bytes_wf (map (fun b => [b]) bs)).
    { apply Forall_map. eapply Forall_impl; [|exact Hwf]. intros b Hb. constructor; [exact Hb | constructor]. }
    pose proof (feed_spec _ H) as F. rewrite concat_singletons in F. exact F.
  Qed.
End Proofs.

(* two framed messages [1;2;3] and [9;8]; cuts inside the first magic and inside the first payload *)
Example feed_two_frames :
  feed 100 r_init [ [77; 65];
                    [74; 73; 0; 0; 0; 3; 1; 2];
                    [3; 77; 65; 74; 73; 0; 0; 0; 2; 9; 8] ]
  = ([ [1; 2; 3]; [9; 8] ], None, r_init).
Proof. vm_compute. reflexivity. Qed.

Example parse_two_frames :
  parse_stream 100 ([77; 65; 74; 73; 0; 0; 0; 3; 1; 2; 3] ++ [77; 65; 74; 73; 0; 0; 0; 2; 9; 8])
  = ([ [1; 2; 3]; [9; 8] ], None, []).
Proof. vm_compute. reflexivity. Qed.

(* a partial third message stays pending *)
Example feed_partial_tail :
  let '(fs, e, st) := feed 100 r_init [ [77; 65; 74; 73; 0; 0; 0; 1; 5; 77; 65; 74]; [73; 0; 0; 0; 7; 1; 2] ] in
  fs = [ [5] ] /\ e = None /\ pending st = [77; 65; 74; 73; 0; 0; 0; 7; 1; 2].
Proof. vm_compute. repeat split. Qed.

(* refusals: one frame, then a bad magic; one frame, then an over-long announcement (cut inside the length) *)
Example feed_bad_magic :
  fst (feed 100 r_init [ [77; 65; 74; 73; 0; 0; 0; 1; 5; 77]; [65; 74; 74; 0] ]) = ([ [5] ], Some BadMagic).
Proof. vm_compute. reflexivity. Qed.

Example feed_too_long :
  fst (feed 100 r_init [ [77; 65; 74; 73; 0; 0; 0; 1; 5; 77]; [65; 74; 73; 0; 0]; [0; 101; 1] ]) = ([ [5] ], Some TooLong).
Proof. vm_compute. reflexivity. Qed.

(* why [feed_spec] relates [pending] to the unconsumed tail only when no error was raised: after TooLong the
   receiver has stored the length WITHOUT consuming its four bytes, so [pending] would count them twice *)
Example pending_after_too_long_differs :
  let '(fs, e, st) := feed 100 r_init [ [77; 65; 74; 73; 0; 0; 0; 101; 1] ] in
  let '(fs', e', rest) := parse_stream 100 [77; 65; 74; 73; 0; 0; 0; 101; 1] in
  fs = fs' /\ e = e' /\ e = Some TooLong /\ pending st <> rest.
Proof. vm_compute. repeat split. discriminate. Qed.

