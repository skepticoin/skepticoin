(* Resource bound of list decoding (stream_deserialize_list and the wire messages built on it): whatever element count
   the input DECLARES, a successful decode yields exactly that many elements and each of them consumed at least one
   byte, so the count (and the number of element-decoder calls) never exceeds the number of bytes present; a declared
   count larger than the remaining input is a decode failure. *)
From Coq Require Import NArith List Lia Arith.
From SkV Require Import Bytes Vlq Codec VlqProofs CodecProofs.
From SkV Require Wire.
Import ListNotations.

Section Bound.
  Context {A : Type} (dec : bytes -> option (A * bytes)).
  Hypothesis dec_consumes : forall bs x r, dec bs = Some (x, r) -> (length r < length bs)%nat.

  Lemma dec_elems_bound : forall fuel count bs l r,
    dec_elems dec fuel count bs = Some (l, r) ->
    N.of_nat (length l) = count /\ (length l + length r <= length bs)%nat.
  Proof.
    induction fuel as [|f IH]; intros count bs l r H; rewrite dec_elems_eq in H;
      destruct (N.eqb_spec count 0) as [->|E].
    - injection H as <- <-. split; [reflexivity|apply Nat.le_refl].
    - discriminate.
    - injection H as <- <-. split; [reflexivity|apply Nat.le_refl].
    - destruct (dec bs) as [[x r0]|] eqn:Ed; [|discriminate].
      destruct (dec_elems dec f (count - 1) r0) as [[xs r']|] eqn:Er; [|discriminate].
      injection H as <- <-. apply IH in Er as [Hc Hl]. apply dec_consumes in Ed.
      cbn [length]. split; lia.
  Qed.

  Theorem dec_list_bounded_by_input bs l r :
    dec_list dec bs = Some (l, r) -> (length l + length r <= length bs)%nat.
  Proof.
    unfold dec_list. destruct (vlq_dec bs) as [[n r0]|] eqn:Ev; [|discriminate].
    intros H. apply dec_elems_bound in H. apply vlq_dec_shorter in Ev. lia.
  Qed.

  (* a declared count above the number of remaining bytes is rejected *)
  Theorem declared_count_exceeds_input_rejected bs n r0 :
    vlq_dec bs = Some (n, r0) -> (N.of_nat (length r0) < n)%N -> dec_list dec bs = None.
  Proof.
    intros Ev Hn. unfold dec_list. rewrite Ev.
    destruct (dec_elems dec (length r0) n r0) as [[l r]|] eqn:E; [|reflexivity].
    apply dec_elems_bound in E. lia.
  Qed.
End Bound.

(* The element decoders of every list the protocol carries consume at least one byte.
   [lens H], for [H : dec bs = Some (x, r)] with [dec] unfolded to its chain of reads: name every read, turn each
   into the equation between the lengths before and after it, and add them up. *)
Ltac lens H :=
  repeat match type of H with
         | context [match ?d with _ => _ end] => destruct d as [[? ?]|] eqn:?; [|discriminate H]
         end;
  injection H as <- <-;
  repeat match goal with
         | E : take _ _ = Some _ |- _ => apply take_len in E
         | E : dec_be _ _ = Some _ |- _ => apply dec_be_len in E
         end;
  cbn [length] in *; lia.

Lemma dec_hash32_consumes bs x r : Wire.dec_hash32 bs = Some (x, r) -> (length r < length bs)%nat.
Proof. unfold Wire.dec_hash32. intros H. apply take_len in H. lia. Qed.

Lemma dec_item_consumes bs x r : Wire.dec_item bs = Some (x, r) -> (length r < length bs)%nat.
Proof. unfold Wire.dec_item. intros H. lens H. Qed.

Lemma dec_peer_consumes bs x r : Wire.dec_peer bs = Some (x, r) -> (length r < length bs)%nat.
Proof. unfold Wire.dec_peer. intros H. lens H. Qed.

Lemma dec_sig_consumes bs s r : dec_sig bs = Some (s, r) -> (length r < length bs)%nat.
Proof. unfold dec_sig. intros H. destr_tags H; lens H. Qed.

Lemma dec_input_consumes bs x r : dec_input bs = Some (x, r) -> (length r < length bs)%nat.
Proof.
  unfold dec_input. intros H. destruct (dec_outref bs) as [[o r0]|] eqn:E; [|discriminate].
  destruct (dec_sig r0) as [[s r1]|] eqn:Es; [|discriminate]. injection H as _ <-.
  apply dec_sig_consumes in Es. unfold dec_outref in E. lens E.
Qed.

Lemma dec_output_consumes bs x r : dec_output bs = Some (x, r) -> (length r < length bs)%nat.
Proof.
  unfold dec_output, dec_pk. intros H. destruct (dec_be 8 bs) as [[v r0]|] eqn:E; [|discriminate].
  destr_tags H. lens H.
Qed.

Lemma dec_tx_consumes bs x r : dec_tx bs = Some (x, r) -> (length r < length bs)%nat.
Proof.
  unfold dec_tx. intros H. destr_tags H.
  destruct (dec_list dec_input bs) as [[ins r1]|] eqn:E1; [|discriminate].
  destruct (dec_list dec_output r1) as [[outs r2]|] eqn:E2; [|discriminate]. injection H as _ <-.
  apply (dec_list_bounded_by_input dec_input dec_input_consumes) in E1.
  apply (dec_list_bounded_by_input dec_output dec_output_consumes) in E2. cbn [length]. lia.
Qed.

(* the lists of the protocol: start hashes of a get-blocks request, inventory items, peers, inputs, outputs,
   transactions of a block -- a successful decode never yields more elements than bytes received *)
Theorem protocol_lists_bounded :
  (forall bs l r, dec_list Wire.dec_hash32 bs = Some (l, r) -> (length l + length r <= length bs)%nat) /\
  (forall bs l r, dec_list Wire.dec_item bs = Some (l, r) -> (length l + length r <= length bs)%nat) /\
  (forall bs l r, dec_list Wire.dec_peer bs = Some (l, r) -> (length l + length r <= length bs)%nat) /\
  (forall bs l r, dec_list dec_input bs = Some (l, r) -> (length l + length r <= length bs)%nat) /\
  (forall bs l r, dec_list dec_output bs = Some (l, r) -> (length l + length r <= length bs)%nat) /\
  (forall bs l r, dec_list dec_tx bs = Some (l, r) -> (length l + length r <= length bs)%nat).
Proof.
  repeat split; apply dec_list_bounded_by_input;
    [ exact dec_hash32_consumes | exact dec_item_consumes | exact dec_peer_consumes
    | exact dec_input_consumes | exact dec_output_consumes | exact dec_tx_consumes ].
Qed.

Theorem getblocks_declared_count_exceeds_input_rejected bs n r0 :
  vlq_dec bs = Some (n, r0) -> (N.of_nat (length r0) < n)%N -> dec_list Wire.dec_hash32 bs = None.
Proof. exact (declared_count_exceeds_input_rejected _ dec_hash32_consumes bs n r0). Qed.

Print Assumptions protocol_lists_bounded.
Print Assumptions getblocks_declared_count_exceeds_input_rejected.
