(* Fork choice of the chain state (coinstate.py add_block_no_validation / forks(), model/ChainState.v):
   for EVERY hash function [sha], EVERY block tree and EVERY parent-before-child arrival order
   ([arrivals sha l s], proofs/ChainDefs.v) the five maps are consistent, the reported tips are exactly the childless
   stored blocks, the active head is the earliest-arrived block of greatest height, the by-height index of every block
   lists exactly its ancestors, and forks() finds the last common ancestor with the active chain.

   Method: the invariant of the block map from ReplayProofs, extended by one component each for the by-height index,
   the genesis block, the tips and the head ([Inv]); each component has its preservation lemma in [Section Step],
   [Inv_step] puts them together and [arrivals_Inv] is the induction over the arrivals.  The results are the [fc_*]
   theorems, for the by-height index the component [i_index] of [arrivals_Inv] as it stands, and for forks()
   [lca_walk].  Ancestry is reasoned about through [anc_gen] / [anc_child] (a block's ancestors are itself and its
   parent's), paths only below them.
   No injectivity of [sha] is assumed: functional facts come from ids being map keys ([stored_inj]) and from the
   freshness premise of [admissible].
   Non-vacuity: [Example.ex_arrivals], [Example.ex_head], [Example.ex_tips], [Example.ex_fc_head]. *)
From stdpp Require Import gmap.
From Coq Require Import NArith ZArith Lia.
From SkV Require Import Bytes Codec ChainState ChainDefs BytesProofs ReplayProofs.
Open Scope N_scope.

Lemma elem_of_snoc {A} (l : list A) x : x ∈ l ++ [x].
Proof. apply elem_of_app. right. apply elem_of_list_singleton. reflexivity. Qed.
Lemma elem_of_snoc_l {A} (l : list A) x y : x ∈ l -> x ∈ l ++ [y].
Proof. intros H. apply elem_of_app. left. exact H. Qed.
Lemma elem_of_snoc_inv {A} (l : list A) x y : x ∈ l ++ [y] -> x ∈ l \/ x = y.
Proof. rewrite elem_of_app, elem_of_list_singleton. auto. Qed.

Section FC.
  Variable sha : bytes -> bytes.
  Notation bid := (block_id sha).
  Notation stored := (stored sha).
  Notation path := (path sha).
  Notation anc := (ancestor_or_self sha).
  Notation has_child := (has_child sha).
  Notation aidx := (arrival_index sha).
  Notation Inv0 := (ReplayProofs.Inv sha).

  Lemma path_last s l b : path s l b -> b ∈ l.
  Proof. destruct 1; [apply elem_of_list_singleton; reflexivity | apply elem_of_snoc]. Qed.

  Lemma path_all_stored s l b : path s l b -> forall a, a ∈ l -> stored s a.
  Proof.
    induction 1 as [g Sg Zg | l p b P IH Sb Zb Eb]; intros a Ha.
    - apply elem_of_list_singleton in Ha as ->. exact Sg.
    - apply elem_of_snoc_inv in Ha as [Ha| ->]; auto.
  Qed.

  Lemma path_has_genesis s l x : path s l x -> exists g, g ∈ l /\ stored s g /\ is_zero32 (b_prev g) = true.
  Proof.
    induction 1 as [g Sg Zg | l p x P (g & Hg & Sg & Zg) Sx Zx Ex]; exists g.
    - split; [apply elem_of_list_singleton; reflexivity | auto].
    - split; [apply elem_of_snoc_l, Hg | auto].
  Qed.

  Lemma child_height l s p b : Inv0 l s -> stored s p -> stored s b -> b_prev b = bid p ->
    is_zero32 (b_prev b) = false -> b_height b = b_height p + 1.
  Proof.
    intros H0 Sp Sb Eb Zb. destruct (parent_stored sha _ _ _ H0 Sb Zb) as (p' & Sp' & Ep' & Hh).
    rewrite (stored_inj sha s p p'); [exact Hh | exact Sp | exact Sp' | congruence].
  Qed.

  Lemma path_height l s lp b : Inv0 l s -> path s lp b -> forall a, a ∈ lp -> b_height a <= b_height b.
  Proof.
    intros H0. induction 1 as [g Sg Zg | lp p b P IH Sb Zb Eb]; intros a Ha.
    - apply elem_of_list_singleton in Ha as ->. lia.
    - apply elem_of_snoc_inv in Ha as [Ha| ->]; [|lia].
      specialize (IH _ Ha). pose proof (child_height _ _ _ _ H0 (path_stored _ _ _ _ P) Sb Eb Zb). lia.
  Qed.

  Lemma anc_stored s a b : anc s a b -> stored s a /\ stored s b.
  Proof. intros (l & P & Ha). split; [eapply path_all_stored | eapply path_stored]; eauto. Qed.

  Lemma anc_height l s a b : Inv0 l s -> anc s a b -> b_height a <= b_height b.
  Proof. intros H0 (lp & P & Ha). eapply path_height; eauto. Qed.

  Lemma anc_refl l s x : Inv0 l s -> stored s x -> anc s x x.
  Proof. intros H0 Sx. destruct (path_exists sha _ _ _ H0 Sx) as (lx & P & _). exists lx. eauto using path_last. Qed.

  (* the ancestors of a block are the block itself and the ancestors of its parent *)
  Lemma anc_gen s a g : stored s g -> is_zero32 (b_prev g) = true -> anc s a g <-> a = g.
  Proof.
    intros Sg Zg. split.
    - intros (l & P & Ha). inversion P; subst; [|congruence]. apply elem_of_list_singleton in Ha. exact Ha.
    - intros ->. exists [g]. split; [apply path_gen; assumption | apply elem_of_list_singleton; reflexivity].
  Qed.

  Lemma anc_child l s b p : Inv0 l s -> stored s b -> is_zero32 (b_prev b) = false -> stored s p ->
    b_prev b = bid p -> forall a, anc s a b <-> a = b \/ anc s a p.
  Proof.
    intros H0 Sb Zb Sp Ep a. split.
    - intros (lb & P & Ha). inversion P as [g Sg Zg | l0 p' b' P0 Sb' Zb' Eb']; subst; [congruence|].
      assert (p' = p) as -> by (eapply (stored_inj sha); eauto using path_stored; congruence).
      apply elem_of_snoc_inv in Ha as [Ha| ->]; [right; exists l0|left]; auto.
    - intros [->|(l0 & P0 & Ha)]; [exact (anc_refl _ _ _ H0 Sb)|].
      exists (l0 ++ [b]). split; [eapply path_step; eauto | apply elem_of_snoc_l, Ha].
  Qed.

  Lemma aidx_find l h : aidx l h = fst <$> list_find (fun x => bid x = h) l.
  Proof.
    induction l as [|x l IH]; [reflexivity|]. cbn [arrival_index list_find]. rewrite IH.
    destruct (bytes_eqb (bid x) h) eqn:E; [apply bytes_eqb_eq in E | apply bytes_eqb_neq in E].
    - rewrite decide_True by exact E. reflexivity.
    - rewrite decide_False by exact E. destruct (list_find _ l) as [[i y]|]; reflexivity.
  Qed.

  Lemma aidx_lt l h i : aidx l h = Some i -> (i < length l)%nat.
  Proof.
    rewrite aidx_find. intros ([j x] & (Hx & _)%list_find_Some & ->)%fmap_Some. exact (lookup_lt_Some _ _ _ Hx).
  Qed.

  Lemma aidx_None l h : aidx l h = None <-> forall x, x ∈ l -> bid x <> h.
  Proof. rewrite aidx_find, fmap_None, list_find_None, Forall_forall. reflexivity. Qed.

  Lemma aidx_app l r h :
    aidx (l ++ r) h = match aidx l h with Some i => Some i | None => (fun j => length l + j)%nat <$> aidx r h end.
  Proof.
    induction l as [|x l IH]; cbn [arrival_index app length].
    - destruct (aidx r h); reflexivity.
    - destruct (bytes_eqb (bid x) h); [reflexivity|]. rewrite IH.
      destruct (aidx l h); [reflexivity|]. destruct (aidx r h); reflexivity.
  Qed.

  Lemma aidx_stored l s h : Inv0 l s -> aidx l h = None <-> cs_blocks s !! h = None.
  Proof.
    intros H0. rewrite aidx_None, eq_None_not_Some. split.
    - intros H [x Hx]. apply (inv_mem _ _ _ H0) in Hx as [Hin Hid]. exact (H x Hin Hid).
    - intros H x Hin Hid. apply H. exists x. apply (inv_mem _ _ _ H0). auto.
  Qed.

  Definition before (l : list block) (h1 h2 : bytes) : Prop :=
    exists i j, aidx l h1 = Some i /\ aidx l h2 = Some j /\ (i < j)%nat.

  Lemma before_app l r h1 h2 : before l h1 h2 -> before (l ++ r) h1 h2.
  Proof. intros (i & j & Ei & Ej & Hij). exists i, j. rewrite !aidx_app, Ei, Ej. auto. Qed.

  Lemma before_snoc l b h : aidx l h <> None -> aidx l (bid b) = None -> before (l ++ [b]) h (bid b).
  Proof.
    intros Hh Hb. destruct (aidx l h) as [i|] eqn:Ei; [|congruence]. exists i, (length l + 0)%nat.
    rewrite !aidx_app, Ei, Hb. cbn [arrival_index]. rewrite bytes_eqb_refl.
    split; [reflexivity|]. split; [reflexivity|]. pose proof (aidx_lt _ _ _ Ei). lia.
  Qed.

  Definition one_genesis (s : cstate) : Prop :=
    forall g g', stored s g -> stored s g' -> is_zero32 (b_prev g) = true -> is_zero32 (b_prev g') = true -> g = g'.

  Definition tips_ok (s : cstate) : Prop :=
    forall h t, cs_heads s !! h = Some t <-> stored s t /\ bid t = h /\ ~ has_child s t.

  Definition head_spec (l : list block) (s : cstate) (hb : block) : Prop :=
    stored s hb /\
    (forall x, stored s x -> b_height x <= b_height hb) /\
    (forall x, stored s x -> b_height x = b_height hb -> bid x <> bid hb -> before l (bid hb) (bid x)).

  Definition head_ok (l : list block) (s : cstate) : Prop :=
    match cs_cur s with
    | None => cs_blocks s = ∅
    | Some c => exists hb, c = bid hb /\ head_spec l s hb
    end.

  Definition index_ok (s : cstate) : Prop :=
    forall x, stored s x -> exists m, cs_byheight s !! bid x = Some m /\
      forall k a, m !! k = Some a <-> (anc s a x /\ b_height a = k).

  Record Inv (l : list block) (s : cstate) : Prop := {
    i_inv0 : Inv0 l s;
    i_bh : dom (cs_byheight s) = dom (cs_blocks s);
    i_gen : one_genesis s;
    i_heads : tips_ok s;
    i_cur : head_ok l s;
    i_index : index_ok s
  }.

  Lemma not_stored_empty (s : cstate) x : cs_blocks s = ∅ -> ~ stored s x.
  Proof. unfold ChainDefs.stored. intros ->. rewrite lookup_empty. discriminate. Qed.

  Lemma Inv_empty : Inv [] cs_empty.
  Proof.
    assert (Hno : forall x, ~ stored cs_empty x) by (intros x; apply not_stored_empty; reflexivity).
    split.
    - apply inv_empty.
    - cbn [cs_empty cs_byheight cs_blocks]. rewrite !dom_empty_L. reflexivity.
    - intros g g' Sg. destruct (Hno _ Sg).
    - intros h t. cbn [cs_empty cs_heads]. rewrite lookup_empty. split; [discriminate|].
      intros (St & _). destruct (Hno _ St).
    - reflexivity.
    - intros x Sx. destruct (Hno _ Sx).
  Qed.

  Section Step.
    Variables (l : list block) (s : cstate) (b : block) (s' : cstate).
    Hypothesis H0 : Inv0 l s.
    Hypothesis Hadm : admissible sha s b.
    Hypothesis Hadd : add_nv sha s b = Some s'.

    Lemma genesis_first x : is_zero32 (b_prev b) = true -> ~ stored s x.
    Proof. intros Zb. destruct Hadm as [_ Hp]. rewrite Zb in Hp. apply not_stored_empty, Hp. Qed.

    Lemma old_not_child_of_new x : stored s x -> is_zero32 (b_prev x) = false -> b_prev x <> bid b.
    Proof.
      intros Sx Zx E. destruct (inv_parent _ _ _ H0 _ Sx Zx) as (p & Ep & _). destruct Hadm as [Hfresh _]. congruence.
    Qed.

    Lemma path_mono lx x : path s lx x -> path s' lx x.
    Proof. apply path_weaken, (blocks_mono sha _ _ _ Hadm Hadd). Qed.

    Lemma path_old lx x : path s' lx x -> stored s x -> path s lx x.
    Proof.
      induction 1 as [g Sg Zg | lx p x P IH Sx Zx Ex]; intros Sx0.
      - apply path_gen; auto.
      - destruct (stored_inv sha _ _ _ Hadd p (path_stored _ _ _ _ P)) as [-> | Sp].
        + exfalso. eapply old_not_child_of_new; eauto.
        + eapply path_step; eauto.
    Qed.

    Lemma anc_old a x : stored s x -> anc s' a x <-> anc s a x.
    Proof.
      intros Sx. split; intros (lx & P & Ha); exists lx; split; auto using path_mono, path_old.
    Qed.

    Lemma has_child_old x : stored s x ->
      has_child s' x <-> has_child s x \/ (is_zero32 (b_prev b) = false /\ b_prev b = bid x).
    Proof.
      intros Sx. split.
      - intros (c & Sc & Zc & Ec). destruct (stored_inv sha _ _ _ Hadd c Sc) as [-> | Sc']; [right; auto|].
        left. exists c; auto.
      - intros [(c & Sc & Zc & Ec) | [Zb Eb]].
        + exists c; auto using (stored_old sha s b s').
        + exists b; auto using (stored_new sha s b s').
    Qed.

    (* the new block's parent is an old block, so the new block is nobody's parent, not even its own *)
    Lemma new_no_child : ~ has_child s' b.
    Proof.
      intros (c & Sc & Zc & Ec). destruct (stored_inv sha _ _ _ Hadd c Sc) as [-> | Sc'].
      - destruct Hadm as [Hfresh Hp]. rewrite Zc in Hp. destruct Hp as (p & Ep & _). congruence.
      - eapply old_not_child_of_new; eauto.
    Qed.

    Lemma bh_step : dom (cs_byheight s) = dom (cs_blocks s) -> dom (cs_byheight s') = dom (cs_blocks s').
    Proof.
      intros Hbh. rewrite (add_nv_blocks sha _ _ _ Hadd), dom_insert_L, <- Hbh.
      pose proof (ad_byheight _ _ _ _ (add_nv_inv sha _ _ _ Hadd)) as Ebh. destruct Hadm as [_ Hp].
      destruct (is_zero32 (b_prev b)).
      - destruct Hp as (_ & He & _). rewrite Ebh, dom_singleton_L, Hbh, He, dom_empty_L, union_empty_r_L. reflexivity.
      - destruct Ebh as (m & _ & ->). apply dom_insert_L.
    Qed.

    Lemma genesis_step : one_genesis s -> one_genesis s'.
    Proof.
      pose proof (stored_inv sha _ _ _ Hadd) as Sinv.
      intros Hgen g g' [->|Sg]%Sinv [->|Sg']%Sinv Zg Zg'; [reflexivity| | |exact (Hgen _ _ Sg Sg' Zg Zg')].
      - destruct (genesis_first _ Zg Sg').
      - destruct (genesis_first _ Zg' Sg).
    Qed.

    (* heads' = heads - parent + new: the new block is childless, the parent has just got a child, and every other
       old block has a child in s' exactly when it had one in s *)
    Lemma tips_step : tips_ok s -> tips_ok s'.
    Proof.
      intros IH h t. rewrite (ad_heads _ _ _ _ (add_nv_inv sha _ _ _ Hadd)).
      rewrite lookup_insert_Some, lookup_delete_Some, (IH h t). split.
      - intros [[<- <-] | (Hh & Hd & St & Et & Hc)].
        + split; [eapply stored_new; eauto|]. split; [reflexivity | exact new_no_child].
        + split; [eapply stored_old; eauto|]. split; [exact Et|].
          rewrite has_child_old by exact St. intros [Hc' | [Zb Eb]]; [auto | congruence].
      - intros (St & Et & Hc). destruct (stored_inv sha _ _ _ Hadd t St) as [-> | St']; [auto|]. right.
        rewrite has_child_old in Hc by exact St'.
        split; [rewrite <- Et; apply not_eq_sym; eapply stored_old_ne; eauto|].
        split; [|tauto]. intros Eb. apply Hc. right. split; [|congruence].
        destruct (is_zero32 (b_prev b)) eqn:Z; [|reflexivity]. destruct (genesis_first _ Z St').
    Qed.

    (* the head update in closed form: whether or not the new block extends the head, it becomes the head exactly when
       it is higher *)
    Lemma cur_step hb : cs_cur s = Some (bid hb) -> stored s hb ->
      cs_cur s' = Some (if b_height hb <? b_height b then bid b else bid hb).
    Proof.
      intros Ec Shb. pose proof (ad_cur _ _ _ _ (add_nv_inv sha _ _ _ Hadd)) as Ecur. rewrite Ec in Ecur.
      destruct (decide (bid hb = b_prev b)) as [E|E].
      - destruct Hadm as [_ Hp]. destruct (is_zero32 (b_prev b)) eqn:Zb; [destruct (genesis_first _ Zb Shb)|].
        destruct Hp as (p & Ep & Hh). rewrite <- E, Shb in Ep. injection Ep as <-.
        rewrite Ecur. destruct (N.ltb_spec (b_height hb) (b_height b)); [reflexivity | lia].
      - destruct Ecur as (cb & Ecb & ->). rewrite Shb in Ecb. injection Ecb as <-. reflexivity.
    Qed.

    Lemma head_step : head_ok l s -> head_ok (l ++ [b]) s'.
    Proof.
      pose proof (stored_inv sha _ _ _ Hadd) as Sinv.
      (* a block higher than every old block is the new head *)
      assert (Hnew : (forall x, stored s x -> b_height x < b_height b) -> head_spec (l ++ [b]) s' b).
      { intros Hlt. split; [eapply stored_new; eauto|]. split.
        - intros x [->|Sx]%Sinv; [lia | apply N.lt_le_incl; auto].
        - intros x [->|Sx]%Sinv Hh Hne; [congruence | specialize (Hlt _ Sx); lia]. }
      unfold head_ok. intros HC. destruct (cs_cur s) as [c|] eqn:Ec.
      2:{ pose proof (ad_cur _ _ _ _ (add_nv_inv sha _ _ _ Hadd)) as Ecur. rewrite Ec in Ecur. rewrite Ecur.
          exists b. split; [reflexivity|]. apply Hnew. intros x []%not_stored_empty. exact HC. }
      destruct HC as (hb & -> & Shb & Hmax & Hfirst). rewrite (cur_step hb Ec Shb).
      destruct (N.ltb_spec (b_height hb) (b_height b)) as [Hlt|Hge].
      - exists b. split; [reflexivity|]. apply Hnew. intros x Sx. specialize (Hmax _ Sx). lia.
      - exists hb. split; [reflexivity|]. split; [eapply stored_old; eauto|]. split.
        + intros x [->|Sx]%Sinv; auto.
        + intros x [->|Sx]%Sinv Hh Hne; [|apply before_app; auto].
          apply before_snoc; rewrite (aidx_stored _ _ _ H0); [congruence | apply Hadm].
    Qed.

    (* old blocks keep their index and their ancestors (add_nv_frame, anc_old); the index of the new block is its
       parent's with the block itself added at its height, and so are its ancestors (anc_child) *)
    Lemma index_step : index_ok s -> index_ok s'.
    Proof.
      pose proof (inv_step sha _ _ _ _ H0 Hadm Hadd) as H0'. pose proof (stored_new sha _ _ _ Hadd) as Snew.
      pose proof (ad_byheight _ _ _ _ (add_nv_inv sha _ _ _ Hadd)) as Ebh.
      intros Hidx x [->|Sx]%(stored_inv sha _ _ _ Hadd).
      2:{ destruct (Hidx _ Sx) as (mx & Emx & Hmx). exists mx.
          destruct (add_nv_frame sha _ _ _ Hadm Hadd (bid x)) as (_ & _ & ->); [eauto|]. split; [exact Emx|].
          intros k a. rewrite Hmx, anc_old by exact Sx. reflexivity. }
      destruct Hadm as [_ Hp]. destruct (is_zero32 (b_prev b)) eqn:Zb.
      - exists {[ 0 := b ]}. rewrite Ebh. split; [apply lookup_singleton|].
        intros k a. rewrite lookup_singleton_Some, (anc_gen _ _ _ Snew Zb).
        destruct Hp as (_ & _ & Hh0). split; [intros [<- <-] | intros [-> <-]]; auto.
      - destruct Hp as (p & Ep & Hh). destruct (lookup_stored sha _ _ _ _ H0 Ep) as [Sp Eid].
        destruct Ebh as (m & Em & ->). destruct (Hidx _ Sp) as (m0 & Em0 & Hm0).
        assert (m0 = m) as -> by congruence.
        exists (<[ b_height b := b ]> m). split; [apply lookup_insert|].
        intros k a. rewrite lookup_insert_Some, Hm0.
        rewrite (anc_child _ _ b p H0' Snew Zb (stored_old sha _ _ _ Hadm Hadd _ Sp) Eid), anc_old by exact Sp.
        split.
        + intros [[<- <-] | (Hk & Ha & <-)]; auto.
        + intros [[-> | Ha] <-]; [left; auto|]. right.
          pose proof (anc_height _ _ _ _ H0 Ha). split; [lia | auto].
    Qed.
  End Step.

  Lemma Inv_step l s b s' : Inv l s -> admissible sha s b -> add_nv sha s b = Some s' -> Inv (l ++ [b]) s'.
  Proof.
    intros [H0 Hbh Hgen Hhd Hcur Hidx] Hadm Hadd. split.
    - eapply inv_step; eassumption.
    - eapply bh_step; eassumption.
    - eapply genesis_step; eassumption.
    - eapply tips_step; eassumption.
    - eapply head_step; eassumption.
    - eapply index_step; eassumption.
  Qed.

  Lemma arrivals_Inv l s : arrivals sha l s -> Inv l s.
  Proof. induction 1; [exact Inv_empty | eapply Inv_step; eauto]. Qed.

  Theorem fc_dom_utxo l s : arrivals sha l s -> dom (cs_utxo s) = dom (cs_blocks s).
  Proof. intros HA. apply (inv_dom _ _ _ (arrivals_inv sha _ _ HA)). Qed.

  Theorem fc_dom_byheight l s : arrivals sha l s -> dom (cs_byheight s) = dom (cs_blocks s).
  Proof. intros HA. apply (i_bh _ _ (arrivals_Inv _ _ HA)). Qed.

  Theorem fc_dom_heads l s : arrivals sha l s -> dom (cs_heads s) ⊆ dom (cs_blocks s).
  Proof.
    intros HA h Hh. apply elem_of_dom in Hh as [t Ht].
    apply (i_heads _ _ (arrivals_Inv _ _ HA)) in Ht as (St & <- & _). apply elem_of_dom. exists t. exact St.
  Qed.

  Theorem fc_parent l s b : arrivals sha l s -> stored s b -> is_zero32 (b_prev b) = false ->
    exists p, stored s p /\ b_prev b = bid p /\ b_height b = b_height p + 1.
  Proof. intros HA. apply (parent_stored sha l), arrivals_inv, HA. Qed.

  (* two stored blocks with the same id are the same block (no hash injectivity needed) *)
  Theorem fc_stored_inj s a b : stored s a -> stored s b -> bid a = bid b -> a = b.
  Proof. apply stored_inj. Qed.

  Theorem fc_genesis_unique l s g g' : arrivals sha l s ->
    stored s g -> stored s g' -> is_zero32 (b_prev g) = true -> is_zero32 (b_prev g') = true -> g = g'.
  Proof. intros HA. apply (i_gen _ _ (arrivals_Inv _ _ HA)). Qed.

  Theorem fc_path_exists l s b : arrivals sha l s -> stored s b ->
    exists p, path s p b /\ (length p <= size (cs_blocks s))%nat.
  Proof. intros HA. apply (path_exists sha l), arrivals_inv, HA. Qed.

  Theorem fc_path_unique l s p p' b : arrivals sha l s -> path s p b -> path s p' b -> p = p'.
  Proof. intros _. apply path_unique. Qed.

  Theorem fc_path_height_strict l s p q a b : arrivals sha l s ->
    path s (p ++ [b]) b -> path s p q -> a ∈ p -> b_height a < b_height b.
  Proof.
    intros HA%arrivals_inv Pb _ Ha. inversion Pb as [g Sg Zg El | l0 p0 b0 P0 Sb Zb Eb El]; subst.
    - destruct p; [inversion Ha | destruct p; discriminate].
    - apply app_inj_tail in El as [-> _]. pose proof (path_height _ _ _ _ HA P0 _ Ha).
      pose proof (child_height _ _ _ _ HA (path_stored _ _ _ _ P0) Sb Eb Zb). lia.
  Qed.

  Theorem fc_anc_height l s a b : arrivals sha l s -> anc s a b -> b_height a <= b_height b.
  Proof. intros HA. eapply anc_height, arrivals_inv, HA. Qed.

  Theorem fc_tips_lookup_iff l s h t : arrivals sha l s ->
    cs_heads s !! h = Some t <-> stored s t /\ bid t = h /\ ~ has_child s t.
  Proof. intros HA. apply (i_heads _ _ (arrivals_Inv _ _ HA)). Qed.

  Theorem fc_tips_lookup l s h b : arrivals sha l s -> cs_heads s !! h = Some b -> stored s b /\ h = bid b.
  Proof. intros HA Hh. apply (fc_tips_lookup_iff _ _ _ _ HA) in Hh as (Sb & <- & _). auto. Qed.

  Theorem fc_head l s : arrivals sha l s -> l <> [] ->
    exists hb, cs_cur s = Some (bid hb) /\ stored s hb /\
      (forall b, stored s b -> b_height b <= b_height hb) /\
      (forall b, stored s b -> b_height b = b_height hb -> bid b <> bid hb ->
         exists i j, aidx l (bid hb) = Some i /\ aidx l (bid b) = Some j /\ (i < j)%nat).
  Proof.
    intros HA Hl. pose proof (arrivals_Inv _ _ HA) as HI. pose proof (i_cur _ _ HI) as HC.
    unfold head_ok in HC. destruct (cs_cur s) as [c|].
    - destruct HC as (hb & -> & Hhb). exists hb. split; [reflexivity | exact Hhb].
    - destruct l as [|x l]; [congruence|]. destruct (not_stored_empty s x HC).
      apply (inv_mem _ _ _ (i_inv0 _ _ HI)). split; [left | reflexivity].
  Qed.

  Lemma genesis_on_path s g lx x : one_genesis s -> stored s g -> is_zero32 (b_prev g) = true -> path s lx x -> g ∈ lx.
  Proof.
    intros Hgen Sg Zg (g' & Hg' & Sg' & Zg')%path_has_genesis. rewrite (Hgen g g' Sg Sg' Zg Zg'). exact Hg'.
  Qed.

  (* one step of forks(): looking a stored block up in the index of [hb] at the block's own height tests whether it is
     an ancestor of [hb] *)
  Lemma lca_step s main hb f x :
    (forall k a, main !! k = Some a <-> (anc s a hb /\ b_height a = k)) -> stored s x ->
    (anc s x hb /\ lca_with_main sha (S f) s main x = Some x) \/
    (~ anc s x hb /\ lca_with_main sha (S f) s main x =
                     match cs_blocks s !! b_prev x with Some p => lca_with_main sha f s main p | None => None end).
  Proof.
    intros Hmain Sx. cbn [lca_with_main].
    assert (Hhit : anc s x hb -> main !! b_height x = Some x) by (intros Hx; apply Hmain; auto).
    destruct (main !! b_height x) as [mb|] eqn:Emb; [destruct (bytes_eqb (bid mb) (bid x)) eqn:Eq|].
    - left. apply bytes_eqb_eq in Eq. apply Hmain in Emb as [Hmb _].
      rewrite <- (stored_inj sha s mb x); [auto | apply (anc_stored _ _ _ Hmb) | exact Sx | exact Eq].
    - right. split; [|reflexivity]. intros [= ->]%Hhit. rewrite bytes_eqb_refl in Eq. discriminate.
    - right. split; [|reflexivity]. intros [=]%Hhit.
  Qed.

  (* walking down from [x], the first block found in the index [main] of [hb] is the highest ancestor of [x] that is
     an ancestor of [hb] *)
  Theorem lca_walk l s hb main : Inv l s -> stored s hb -> cs_byheight s !! bid hb = Some main ->
    forall fuel x, stored s x -> (N.to_nat (b_height x) < fuel)%nat ->
    exists a, lca_with_main sha fuel s main x = Some a /\ anc s a x /\ anc s a hb /\
              forall y, anc s y x -> anc s y hb -> b_height y <= b_height a.
  Proof.
    intros HI Shb Em. pose proof (i_inv0 _ _ HI) as H0.
    destruct (i_index _ _ HI _ Shb) as (m & Em' & Hmain). assert (m = main) as -> by congruence.
    destruct (path_exists sha _ _ _ H0 Shb) as (lh & Ph & _).
    induction fuel as [|f IH]; intros x Sx Hf; [lia|].
    destruct (lca_step s main hb f x Hmain Sx) as [[Hx ->] | [Hx ->]].
    - exists x. split; [reflexivity|]. split; [exact (anc_refl _ _ _ H0 Sx)|]. split; [exact Hx|].
      intros y Hy _. exact (anc_height _ _ _ _ H0 Hy).
    - destruct (is_zero32 (b_prev x)) eqn:Zx.
      { destruct Hx. exists lh. split; [exact Ph | exact (genesis_on_path _ _ _ _ (i_gen _ _ HI) Sx Zx Ph)]. }
      destruct (parent_stored sha _ _ _ H0 Sx Zx) as (p & Sp & Ep & Hh).
      rewrite Ep, Sp. destruct (IH p Sp) as (a & Ea & Hap & Hah & Hm); [lia|].
      pose proof (anc_child _ _ x p H0 Sx Zx Sp Ep) as Hc.
      exists a. split; [exact Ea|]. split; [apply Hc; auto|]. split; [exact Hah|].
      intros y [->|Hy]%Hc Hyh; [contradiction | auto].
  Qed.
End FC.

(* non-vacuity: a genesis block and a two-way fork *)
Module Example.
  (* a toy "hash": the last 32 bytes of the serialisation, i.e. the evidence's block-hash field *)
  Definition sha (bs : bytes) : bytes := skipn (length bs - 32) bs.
  Definition mk (height : N) (prev : bytes) (tag : N) : block :=
    mkBlock (mkHeader (mkSummary height prev (zeros 32) 0 (zeros 32) 0)
                      (mkEvidence (zeros 32) (zeros 32) (repeat tag 32)))
            [mkTx [] []].
  Definition g : block := mk 0 (zeros 32) 1.
  Definition c1 : block := mk 1 (repeat 1 32) 2.
  Definition c2 : block := mk 1 (repeat 1 32) 3.     (* same parent, same height: a fork *)
  Definition step (s : cstate) (b : block) : cstate := default cs_empty (add_nv sha s b).
  Definition s1 := step cs_empty g.
  Definition s2 := step s1 c1.
  Definition s3 := step s2 c2.

  Example ex_ids : block_id sha g = repeat 1 32 /\ block_id sha c1 = repeat 2 32 /\ block_id sha c2 = repeat 3 32.
  Proof. vm_compute. auto. Qed.

  (* [vm_compute] is only ever asked for small results (a boolean, one lookup): reading a whole normalised gmap
     state back is slow, and so is an equation between maps, whose type it would normalise as well *)
  Lemma step_ok s b : (if add_nv sha s b then true else false) = true -> add_nv sha s b = Some (step s b).
  Proof. unfold step. destruct (add_nv sha s b); [reflexivity | discriminate]. Qed.

  Example ex_arrivals : arrivals sha [g; c1; c2] s3.
  Proof.
    apply (arr_snoc sha [g; c1] s2 c2); [apply (arr_snoc sha [g] s1 c1); [apply (arr_snoc sha [] cs_empty g)|..]|..].
    - apply arr_nil.
    - split; [reflexivity|]. change (is_zero32 (b_prev g)) with true. repeat split.
    - apply step_ok. vm_compute. reflexivity.
    - split; [vm_compute; reflexivity|]. exists g. vm_compute. split; reflexivity.
    - apply step_ok. vm_compute. reflexivity.
    - split; [vm_compute; reflexivity|]. exists g. vm_compute. split; reflexivity.
    - apply step_ok. vm_compute. reflexivity.
  Qed.

  (* the fork does not switch the head: it stays at the first-arrived child; both children are tips *)
  Example ex_head : cs_cur s3 = Some (block_id sha c1).
  Proof. vm_compute. reflexivity. Qed.

  Example ex_tips : cs_heads s3 !! block_id sha c1 = Some c1 /\ cs_heads s3 !! block_id sha c2 = Some c2 /\
                    cs_heads s3 !! block_id sha g = None.
  Proof. vm_compute. auto. Qed.

  (* the general theorem instantiated on the example *)
  Example ex_fc_head : exists hb, cs_cur s3 = Some (block_id sha hb) /\ stored sha s3 hb /\
      (forall b, stored sha s3 b -> b_height b <= b_height hb).
  Proof.
    destruct (fc_head sha _ _ ex_arrivals) as (hb & H1 & H2 & H3 & _); [discriminate|]. exists hb. auto.
  Qed.
End Example.

