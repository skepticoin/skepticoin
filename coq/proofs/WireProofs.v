(* Proofs about the wire-message codecs of model/Wire.v (networking/messages.py).
   The codecs that skip nothing (version, hash32, item, peer, payload) are [codec_ok] like the consensus types.
   The decoders of the message header and of Hello ignore their version byte and the reserved padding, so they, and
   hence messages, are only [codec_rt]; a frame (header, message, trailing bytes that are ignored) has its round trip
   and well-formedness from the two. Every message other than Hello is canonical as well, and the non-canonicity of
   the rest is recorded by examples (different byte strings decode to the same message). *)
From Coq Require Import NArith List Bool.
From SkV Require Import Bytes Codec Wire CodecProofs.
Import ListNotations.
Open Scope N_scope.

Lemma version_codec : codec_ok (fun v => v <? 256) enc_version dec_version.
Proof. exact (be_codec 1). Qed.

Lemma hash32_codec : codec_ok (len_is 32) enc_hash32 dec_hash32.
Proof. exact (take_codec 32). Qed.

Lemma item_codec : codec_ok (fun it => len_is 2 (fst it) && len_is 32 (snd it)) enc_item dec_item.
Proof.
  split.
  - intros x r H. unfold enc_item. split_andb. rewrite <- app_assoc. unfold dec_item.
    rewrite take_rt by assumption. cbv beta iota.
    rewrite take_rt by assumption. destruct x; reflexivity.
  - intros bs x r Hwf H. unfold dec_item in H. step take_inv_wf H. step take_inv_wf H.
    injection H as <- <-. unfold enc_item. finish.
  - intros x H. unfold enc_item. split_andb. solve_bytes_wf.
Qed.

Lemma peer_codec : codec_ok wf_peer enc_peer dec_peer.
Proof.
  split.
  - intros x r H. unfold wf_peer, enc_peer in *. split_andb. rewrite <- !app_assoc. unfold dec_peer.
    rewrite dec_be_rt by assumption. cbv beta iota.
    rewrite take_rt by assumption. cbv beta iota.
    rewrite dec_be_rt by assumption. destruct x; reflexivity.
  - intros bs x r Hwf H. unfold dec_peer in H. step dec_be_inv H. step take_inv_wf H. step dec_be_inv H.
    injection H as <- <-. unfold enc_peer, wf_peer. finish.
  - intros x H. unfold wf_peer, enc_peer in *. split_andb. solve_bytes_wf.
Qed.

Definition versions_codec := list_codec version_codec eq_refl.
Definition hashes_codec := list_codec hash32_codec eq_refl.
Definition items_codec := list_codec item_codec eq_refl.
Definition peers_codec := list_codec peer_codec eq_refl.

Lemma payload_codec : codec_ok wf_payload enc_payload dec_payload.
Proof.
  split.
  - intros [b|h|t] r H; unfold wf_payload, enc_payload in *; rewrite <- app_assoc; cbn [app]; unfold dec_payload.
    + rewrite (ok_rt block_codec) by assumption. reflexivity.
    + rewrite (ok_rt header_codec) by assumption. reflexivity.
    + rewrite (ok_rt tx_codec) by assumption. reflexivity.
  - intros bs p r Hwf H. unfold dec_payload in H. destr_tags H.
    + (* block *) step (ok_inv block_codec) H. injection H as <- <-. auto.
    + (* transaction *) step (ok_inv tx_codec) H. injection H as <- <-. auto.
    + (* header *) step (ok_inv header_codec) H. injection H as <- <-. auto.
  - intros [b|h|t] H; unfold wf_payload, enc_payload in *; solve_bytes_wf.
    + apply (ok_enc block_codec), H.
    + apply (ok_enc header_codec), H.
    + apply (ok_enc tx_codec), H.
Qed.

Theorem dec_payload_canonical bs p r : bytes_wf bs -> dec_payload bs = Some (p, r) -> enc_payload p ++ r = bs.
Proof. apply (ok_canonical payload_codec). Qed.
Theorem dec_payload_wf bs p r : bytes_wf bs -> dec_payload bs = Some (p, r) -> wf_payload p = true /\ bytes_wf r.
Proof. apply (ok_wf payload_codec). Qed.

(* [codec_ok] without canonicity: what holds of a decoder that skips bytes.  The encodings are still a prefix code and
   injective, by the round trip: [enc_prefix_free_of_rt (rt_rt c)], [enc_inj_of_rt (rt_rt c)]. *)
Record codec_rt {A : Type} (wf : A -> bool) (enc : A -> bytes) (dec : bytes -> option (A * bytes)) : Prop := {
  rt_rt  : forall x r, wf x = true -> dec (enc x ++ r) = Some (x, r);
  rt_wf  : forall bs x r, bytes_wf bs -> dec bs = Some (x, r) -> wf x = true /\ bytes_wf r;
  rt_enc : forall x, wf x = true -> bytes_wf (enc x) }.
Arguments rt_rt {A wf enc dec}.
Arguments rt_wf {A wf enc dec}.
Arguments rt_enc {A wf enc dec}.

(* whatever the node decodes it can re-encode, and the re-encoding decodes to the same value *)
Lemma rt_reencode {A : Type} {wf enc dec} (c : @codec_rt A wf enc dec) bs x r r' :
  bytes_wf bs -> dec bs = Some (x, r) -> bytes_wf (enc x) /\ dec (enc x ++ r') = Some (x, r').
Proof.
  intros Hwf H. destruct (rt_wf c _ _ _ Hwf H) as [Hx _]. split; [apply (rt_enc c), Hx|apply (rt_rt c), Hx].
Qed.

Lemma msg_header_codec : codec_rt wf_msg_header enc_msg_header dec_msg_header.
Proof.
  split.
  - intros x r H. unfold wf_msg_header, enc_msg_header in *. split_andb. rewrite <- !app_assoc. unfold dec_msg_header.
    rewrite (take_app 1 [0]) by reflexivity. cbv beta iota.
    rewrite dec_be_rt by assumption. cbv beta iota.
    rewrite dec_be_rt by assumption. cbv beta iota.
    rewrite dec_be_rt by assumption. cbv beta iota.
    rewrite dec_be_rt by assumption. cbv beta iota.
    rewrite take_zeros. destruct x; reflexivity.
  - intros bs x r Hwf H. unfold dec_msg_header in H.
    step take_inv_wf H. step dec_be_inv H. step dec_be_inv H. step dec_be_inv H. step dec_be_inv H.
    step take_inv_wf H. injection H as <- <-. unfold wf_msg_header. split; [solve_andb|assumption].
  - intros x _. unfold enc_msg_header. solve_bytes_wf.
Qed.

Lemma enc_msg_header_length h : length (enc_msg_header h) = 53%nat.
Proof. unfold enc_msg_header. rewrite !app_length, !be_enc_length, zeros_length. reflexivity. Qed.

Lemma hello_codec : codec_rt wf_hello enc_hello dec_hello.
Proof.
  (* The widths 16 and 256 are unary numerals, which every step below would copy several times. No step looks inside
     them, so they are made variables first. *)
  unfold wf_hello, enc_hello, dec_hello. generalize 16%nat, 256%nat. intros n16 n256. split; cbv beta.
  - intros x r H. split_andb. rewrite <- !app_assoc.
    rewrite (take_app 1 [0]) by reflexivity. cbv beta iota.
    rewrite take_rt by assumption. cbv beta iota.
    rewrite dec_be_rt by assumption. cbv beta iota.
    rewrite take_rt by assumption. cbv beta iota.
    rewrite dec_be_rt by assumption. cbv beta iota.
    rewrite dec_be_rt by assumption. cbv beta iota.
    rewrite dec_be_rt by assumption. cbv beta iota.
    rewrite Nat2N.id, take_app by reflexivity. cbv beta iota.
    rewrite (ok_rt versions_codec) by assumption. cbv beta iota.
    rewrite take_zeros. destruct x; reflexivity.
  - intros bs x r Hwf H.
    step take_inv_wf H. step take_inv_wf H. step dec_be_inv H. step take_inv_wf H. step dec_be_inv H.
    step dec_be_inv H. step dec_be_inv H. step take_inv_wf H. step (ok_inv versions_codec) H. step take_inv_wf H.
    match goal with L : len_is (N.to_nat _) _ = true |- _ => apply len_is_to_nat in L as [<- ?] end.
    injection H as <- <-. split; [solve_andb|assumption].
  - intros x H. split_andb. solve_bytes_wf. apply (ok_enc versions_codec). assumption.
Qed.

(* decoded messages are well formed, and canonical except Hello (whose decoder skips version and padding) *)
Lemma dec_msg_inv bs m r : bytes_wf bs -> dec_msg bs = Some (m, r) ->
  match m with MHello _ => True | _ => bs = enc_msg m ++ r end /\ wf_msg m = true /\ bytes_wf r.
Proof.
  intros Hwf H. unfold dec_msg in H. destr_tags H.
  - (* hello *)
    destruct (dec_hello bs) as [[h r1]|] eqn:E; [|discriminate H]. injection H as <- <-.
    split; [exact I|]. apply (rt_wf hello_codec _ _ _ Hwf E).
  - (* get peers *) injection H as <- <-. auto.
  - (* get data *)
    step take_inv_wf H. step take_inv_wf H. injection H as <- <-. unfold enc_msg, wf_msg. finish.
  - (* peers *) step (ok_inv peers_codec) H. injection H as <- <-. auto.
  - (* data *) step (ok_inv payload_codec) H. injection H as <- <-. auto.
  - (* inventory *) step (ok_inv items_codec) H. injection H as <- <-. auto.
  - (* get blocks *)
    step (ok_inv hashes_codec) H. step take_inv_wf H. injection H as <- <-. unfold enc_msg, wf_msg. finish.
Qed.

Lemma msg_codec : codec_rt wf_msg enc_msg dec_msg.
Proof.
  split.
  - intros [h|starts stop|items|dt h|p| |ps] r H; unfold wf_msg, enc_msg in *;
      rewrite <- ?app_assoc; cbn [app]; unfold dec_msg.
    + rewrite (rt_rt hello_codec) by assumption. reflexivity.
    + split_andb. rewrite (ok_rt hashes_codec) by assumption. cbv beta iota.
      rewrite take_rt by assumption. reflexivity.
    + rewrite (ok_rt items_codec) by assumption. reflexivity.
    + split_andb. rewrite take_rt by assumption. cbv beta iota. rewrite take_rt by assumption. reflexivity.
    + rewrite (ok_rt payload_codec) by assumption. reflexivity.
    + reflexivity.
    + rewrite (ok_rt peers_codec) by assumption. reflexivity.
  - intros bs m r Hwf H. apply (dec_msg_inv _ _ _ Hwf H).
  - intros [h|starts stop|items|dt h|p| |ps] H; unfold wf_msg, enc_msg in *; split_andb; solve_bytes_wf.
    + apply (rt_enc hello_codec), H.
    + apply (ok_enc hashes_codec). assumption.
    + apply (ok_enc items_codec), H.
    + apply (ok_enc payload_codec), H.
    + apply (ok_enc peers_codec), H.
Qed.

Theorem dec_msg_canonical_nonhello bs m r : bytes_wf bs -> dec_msg bs = Some (m, r) ->
  (forall h, m <> MHello h) -> enc_msg m ++ r = bs.
Proof.
  intros Hwf H Hn. destruct (dec_msg_inv _ _ _ Hwf H) as (Hc & _ & _).
  destruct m; try (symmetry; exact Hc). exfalso. eapply Hn. reflexivity.
Qed.

Theorem dec_msg_reencode bs m r r' : bytes_wf bs -> dec_msg bs = Some (m, r) ->
  bytes_wf (enc_msg m) /\ dec_msg (enc_msg m ++ r') = Some (m, r').
Proof. apply (rt_reencode msg_codec). Qed.

Theorem dec_msg_header_reencode bs h r r' : bytes_wf bs -> dec_msg_header bs = Some (h, r) ->
  bytes_wf (enc_msg_header h) /\ dec_msg_header (enc_msg_header h ++ r') = Some (h, r').
Proof. apply (rt_reencode msg_header_codec). Qed.

Theorem dec_frame_roundtrip h m trailing : wf_msg_header h = true -> wf_msg m = true ->
  dec_frame (enc_msg_header h ++ enc_msg m ++ trailing) = Some (h, m).
Proof.
  intros Hh Hm. unfold dec_frame. rewrite (rt_rt msg_header_codec) by exact Hh. cbv beta iota.
  rewrite (rt_rt msg_codec) by exact Hm. reflexivity.
Qed.

Theorem dec_frame_wf bs h m : bytes_wf bs -> dec_frame bs = Some (h, m) ->
  wf_msg_header h = true /\ wf_msg m = true.
Proof.
  intros Hwf H. unfold dec_frame in H.
  destruct (dec_msg_header bs) as [[h0 r0]|] eqn:E; [|discriminate H].
  destruct (dec_msg r0) as [[m0 r1]|] eqn:E1; [|discriminate H]. injection H as <- <-.
  destruct (rt_wf msg_header_codec _ _ _ Hwf E) as [Hh Hr0]. destruct (rt_wf msg_codec _ _ _ Hr0 E1) as [Hm _].
  split; assumption.
Qed.

Theorem enc_frame_wf h m : wf_msg_header h = true -> wf_msg m = true -> bytes_wf (enc_msg_header h ++ enc_msg m).
Proof.
  intros Hh Hm. apply bytes_wf_app. split; [apply (rt_enc msg_header_codec), Hh|apply (rt_enc msg_codec), Hm].
Qed.

(* a decoded frame re-encodes to a frame that decodes to the same (header, message) *)
Theorem dec_frame_reencode bs h m trailing : bytes_wf bs -> dec_frame bs = Some (h, m) ->
  dec_frame (enc_msg_header h ++ enc_msg m ++ trailing) = Some (h, m).
Proof.
  intros Hwf H. destruct (dec_frame_wf _ _ _ Hwf H) as [Hh Hm]. apply dec_frame_roundtrip; assumption.
Qed.

(* the header decoder ignores the version byte: a header with version byte 7 decodes, but re-encodes differently *)
Theorem dec_msg_header_ignores_version :
  exists bs h r, bytes_wf bs /\ dec_msg_header bs = Some (h, r) /\ enc_msg_header h ++ r <> bs.
Proof.
  exists (7 :: zeros 52), (mkMH 0 0 0 0), []. split; [|split].
  - apply bytes_wf_cons. split; [reflexivity|apply zeros_wf].
  - vm_compute. reflexivity.
  - discriminate.
Qed.

(* ... and the reserved padding: 32 bytes of 0xff instead of zeros *)
Theorem dec_msg_header_ignores_padding :
  exists bs h r, bytes_wf bs /\ dec_msg_header bs = Some (h, r) /\ enc_msg_header h ++ r <> bs.
Proof.
  exists (zeros 21 ++ repeat 255 32), (mkMH 0 0 0 0), []. split; [|split].
  - apply bytes_wfb_iff. vm_compute. reflexivity.
  - vm_compute. reflexivity.
  - vm_compute. discriminate.
Qed.

(* two different wire strings decode to the same header *)
Theorem dec_msg_header_not_injective :
  exists bs1 bs2 h, bytes_wf bs1 /\ bytes_wf bs2 /\ bs1 <> bs2 /\
                    dec_msg_header bs1 = Some (h, []) /\ dec_msg_header bs2 = Some (h, []).
Proof.
  exists (7 :: zeros 52), (zeros 53), (mkMH 0 0 0 0). split; [|split; [|split; [|split]]].
  - apply bytes_wf_cons. split; [reflexivity|apply zeros_wf].
  - apply zeros_wf.
  - discriminate.
  - reflexivity.
  - reflexivity.
Qed.

(* the Hello decoder ignores its version byte as well *)
Theorem dec_hello_ignores_version :
  exists bs h r, bytes_wf bs /\ dec_hello bs = Some (h, r) /\ enc_hello h ++ r <> bs.
Proof.
  exists (7 :: zeros 298), (mkHello (zeros 16) 0 (zeros 16) 0 0 [] []), []. split; [|split].
  - apply bytes_wf_cons. split; [reflexivity|apply zeros_wf].
  - vm_compute. reflexivity.
  - discriminate.
Qed.

Theorem dec_msg_hello_not_canonical :
  exists bs m r, bytes_wf bs /\ dec_msg bs = Some (m, r) /\ enc_msg m ++ r <> bs.
Proof.
  destruct dec_hello_ignores_version as (bs & h & r & Hwf & Hd & Hne).
  exists (0 :: 0 :: bs), (MHello h), r. split; [|split].
  - repeat (constructor; [reflexivity|]). exact Hwf.
  - cbn [dec_msg]. rewrite Hd. reflexivity.
  - intros E. apply Hne. injection E as E. exact E.
Qed.

(* frames: trailing bytes are ignored, so a frame is not canonical either *)
Theorem dec_frame_ignores_trailing h m t1 t2 : wf_msg_header h = true -> wf_msg m = true ->
  dec_frame (enc_msg_header h ++ enc_msg m ++ t1) = dec_frame (enc_msg_header h ++ enc_msg m ++ t2).
Proof. intros Hh Hm. rewrite !dec_frame_roundtrip by assumption. reflexivity. Qed.
