(* C17: the merkle commitment determines the ordered list (symbolic hash model, then any injective,
   domain-separated concrete hash). *)
From Coq Require Import List Lia.
From SkV Require Import Merkle.
Import ListNotations.

(* [level] takes its argument two elements at a time, and so does every induction about it. *)
Lemma pair_ind {A} (P : list A -> Prop) :
  P [] -> (forall a, P [a]) -> (forall a b r, P r -> P (a :: b :: r)) -> forall l, P l.
Proof.
  intros P0 P1 P2. fix IH 1. intros [|a [|b r]]; [exact P0 | apply P1 | apply P2, IH].
Qed.

Lemma level_len {D} (H : D -> D -> D) : forall n l, length l <= n -> length (level H l) <= length l /\ (2 <= length l -> length (level H l) < length l).
Proof. intros n l _. induction l using pair_ind; simpl; lia. Qed.

Lemma root_fuel_enough {D} (H : D -> D -> D) : forall f l, l <> [] -> length l <= f -> exists t, root_fuel H f l = Some t.
Proof.
  induction f as [|f IH]; intros l Hne Hl; [destruct l; [congruence | simpl in Hl; lia]|].
  destruct l as [|a [|b r]]; [congruence | eexists; reflexivity |].
  cbn [root_fuel]. apply IH; [discriminate|].
  pose proof (proj2 (level_len H _ (a :: b :: r) (le_n _))) as Hlt. cbn [length] in Hlt, Hl. lia.
Qed.

(* What the arguments below use of [level] and [root_fuel], for an arbitrary pairing function G:
   a map that turns G into H commutes with both; a property of lists that one level preserves
   holds of the root. *)
Section Pairing.
  Context {T : Type} (G : T -> T -> T).

  Section Hom.
    Context {U : Type} (H : U -> U -> U) (f : T -> U) (Hf : forall a b, f (G a b) = H (f a) (f b)).

    Lemma level_map l : level H (map f l) = map f (level G l).
    Proof.
      induction l as [| |a b r IH] using pair_ind; [reflexivity..|].
      cbn [map level]. rewrite Hf, IH. reflexivity.
    Qed.

    Lemma root_fuel_map n : forall l, root_fuel H n (map f l) = option_map f (root_fuel G n l).
    Proof.
      induction n as [|n IH]; intros l; [reflexivity|].
      destruct l as [|a [|b r]]; [reflexivity..|].
      change (root_fuel H n (level H (map f (a :: b :: r))) = option_map f (root_fuel G n (level G (a :: b :: r)))).
      rewrite level_map. apply IH.
    Qed.
  End Hom.

  Lemma root_fuel_ind (P : list T -> Prop) : (forall l, P l -> P (level G l)) ->
    forall n l t, root_fuel G n l = Some t -> P l -> P [t].
  Proof.
    intros HP. induction n as [|n IH]; intros l t Hr Hl; [discriminate|].
    destruct l as [|a [|b r]]; [discriminate | injection Hr as <-; exact Hl |].
    cbn [root_fuel] in Hr. apply (IH _ _ Hr), HP, Hl.
  Qed.

  Section Invariant.
    Context (P : T -> Prop) (HP : forall a b, P a -> P b -> P (G a b)).

    Lemma level_Forall l : Forall P l -> Forall P (level G l).
    Proof.
      induction l as [| |a b r IH] using pair_ind; intros Hl; [exact Hl..|].
      apply Forall_cons_iff in Hl as [Ha Hl]. apply Forall_cons_iff in Hl as [Hb Hl].
      cbn [level]. constructor; [apply HP; assumption | apply IH, Hl].
    Qed.

    Lemma root_fuel_Forall n l t : root_fuel G n l = Some t -> Forall P l -> P t.
    Proof. intros Hr Hl. apply (Forall_inv (l := [])). exact (root_fuel_ind _ level_Forall n l t Hr Hl). Qed.
  End Invariant.

  Section Concat.
    Context {X : Type} (f : T -> list X) (Hf : forall a b, f (G a b) = f a ++ f b).

    Lemma level_concat l : concat (map f (level G l)) = concat (map f l).
    Proof.
      induction l as [| |a b r IH] using pair_ind; [reflexivity..|].
      cbn [level map concat]. rewrite Hf, IH, app_assoc. reflexivity.
    Qed.

    Lemma root_fuel_concat n l t : root_fuel G n l = Some t -> f t = concat (map f l).
    Proof.
      intros Hr. apply (root_fuel_ind (fun l' => concat (map f l') = concat (map f l))) in Hr.
      - cbn in Hr. rewrite app_nil_r in Hr. exact Hr.
      - intros l' <-. apply level_concat.
      - reflexivity.
    Qed.
  End Concat.
End Pairing.

Lemma flat_level {A} : forall n (l : list (tm A)), length l <= n -> flat (level Node l) = flat l.
Proof. intros n l _. apply level_concat. reflexivity. Qed.

Lemma root_fuel_flat {A} : forall f (l : list (tm A)) t, root_fuel Node f l = Some t -> flatten t = flat l.
Proof. intros f l t. apply root_fuel_concat. reflexivity. Qed.

Lemma flat_atoms {A} (xs : list A) : flat (map Atom xs) = xs.
Proof. unfold flat. induction xs as [|x xs IH]; [reflexivity|]. cbn. f_equal. exact IH. Qed.

(* C17 in the symbolic model: the commitment determines the ordered list *)
Theorem root_sym_injective {A} (xs ys : list A) t :
  root Node (map Atom xs) = Some t -> root Node (map Atom ys) = Some t -> xs = ys.
Proof.
  intros Hx Hy. apply root_fuel_flat in Hx. apply root_fuel_flat in Hy.
  rewrite flat_atoms in Hx, Hy. congruence.
Qed.

(* transfer to any concrete hash that is collision-free and domain-separated on the atoms used *)
Section Interp.
  Variable D : Type.
  Variable H2 : D -> D -> D.
  Hypothesis H2_inj : forall a b a' b', H2 a b = H2 a' b' -> a = a' /\ b = b'.
  Fixpoint interp (t : tm D) : D := match t with Atom x => x | Node a b => H2 (interp a) (interp b) end.
  Fixpoint atoms_sep (t : tm D) : Prop :=
    match t with Atom x => forall a b, x <> H2 a b | Node a b => atoms_sep a /\ atoms_sep b end.

  Lemma interp_inj : forall t t', atoms_sep t -> atoms_sep t' -> interp t = interp t' -> t = t'.
  Proof.
    induction t as [x|a IHa b IHb]; intros [x'|a' b'] Hs Hs' He; cbn in *.
    - congruence.
    - exfalso. eapply Hs. exact He.
    - exfalso. eapply Hs'. symmetry. exact He.
    - destruct Hs, Hs'. apply H2_inj in He as [E1 E2]. f_equal; auto.
  Qed.

  Lemma level_interp l : level H2 (map interp l) = map interp (level Node l).
  Proof. apply level_map. reflexivity. Qed.

  Lemma root_fuel_interp f : forall l, root_fuel H2 f (map interp l) = option_map interp (root_fuel Node f l).
  Proof. apply root_fuel_map. reflexivity. Qed.

  Lemma atoms_sep_node a b : atoms_sep a -> atoms_sep b -> atoms_sep (Node a b).
  Proof. exact (@conj _ _). Qed.

  Lemma atoms_sep_level : forall n l, length l <= n -> Forall atoms_sep l -> Forall atoms_sep (level Node l).
  Proof. intros n l _. apply level_Forall, atoms_sep_node. Qed.

  Lemma root_fuel_sep f : forall l t, Forall atoms_sep l -> root_fuel Node f l = Some t -> atoms_sep t.
  Proof. intros l t Hl Hr. exact (root_fuel_Forall Node atoms_sep atoms_sep_node f l t Hr Hl). Qed.

  (* a list of digests is the interpretation of its atoms *)
  Lemma root_atoms xs : root H2 xs = option_map interp (root Node (map Atom xs)).
  Proof. unfold root. rewrite map_length, <- root_fuel_interp, map_map, map_id. reflexivity. Qed.

  Lemma root_atoms_sep xs t : Forall (fun x => forall a b, x <> H2 a b) xs ->
    root Node (map Atom xs) = Some t -> atoms_sep t.
  Proof. intros Hsep. apply root_fuel_sep, Forall_map. exact Hsep. Qed.

  (* C17 for the concrete hash, under the two idealisations *)
  Theorem root_injective (xs ys : list D) d :
    (forall x, In x (xs ++ ys) -> forall a b, x <> H2 a b) ->
    root H2 xs = Some d -> root H2 ys = Some d -> xs = ys.
  Proof.
    intros Hsep Hx Hy. apply Forall_forall, Forall_app in Hsep as [Sx Sy].
    rewrite root_atoms in Hx, Hy.
    destruct (root Node (map Atom xs)) as [tx|] eqn:Ex; [|discriminate].
    destruct (root Node (map Atom ys)) as [ty|] eqn:Ey; [|discriminate].
    apply (root_sym_injective xs ys tx Ex). rewrite Ey. f_equal. apply interp_inj.
    - exact (root_atoms_sep ys ty Sy Ey).
    - exact (root_atoms_sep xs tx Sx Ex).
    - cbn in Hx, Hy. congruence.
  Qed.
End Interp.

(* the separation premise is necessary *)
Example collision_without_separation (H : nat -> nat -> nat) a b c :
  root H [H a b; c] = root H [a; b; c].
Proof. reflexivity. Qed.
