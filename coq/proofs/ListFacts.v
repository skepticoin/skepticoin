(* Generic facts about the standard library's lists (and [le_mul_pos] about numbers), used by the proofs about the
   models; no definition of the project occurs in them. *)
From Coq Require Import List Bool PeanoNat BinNat Sorted.
Import ListNotations.

Lemma in_snoc {A} (l : list A) (k x : A) : In x (l ++ [k]) <-> In x l \/ x = k.
Proof. rewrite in_app_iff. cbn. intuition. Qed.

Lemma snoc_cases {A} (l : list A) : l = [] \/ exists r k, l = r ++ [k].
Proof. destruct l using rev_ind; eauto. Qed.

Lemma concat_singletons {A} (l : list A) : concat (map (fun x => [x]) l) = l.
Proof. induction l as [|x l IH]; cbn [map concat app]; [reflexivity | rewrite IH; reflexivity]. Qed.

Lemma fold_left_ind {A B} (f : A -> B -> A) (P : A -> Prop) :
  (forall a b, P a -> P (f a b)) -> forall l a, P a -> P (fold_left f l a).
Proof. intros HP. induction l as [|b l IH]; cbn; intros a Ha; [exact Ha | apply IH, HP, Ha]. Qed.

Lemma le_mul_pos n b : 1 <= b -> n <= n * b.
Proof. intros H. rewrite <- (Nat.mul_1_r n) at 1. apply Nat.mul_le_mono_l, H. Qed.

Lemma firstn_app_le {A} n (a b : list A) : n <= length a -> firstn n (a ++ b) = firstn n a.
Proof. intros H. apply Nat.sub_0_le in H. rewrite firstn_app, H. cbn [firstn]. apply app_nil_r. Qed.

Lemma skipn_app_le {A} n (a b : list A) : n <= length a -> skipn n (a ++ b) = skipn n a ++ b.
Proof. intros H. apply Nat.sub_0_le in H. rewrite skipn_app, H. reflexivity. Qed.

Lemma firstn_length_firstn {A} n (l : list A) : firstn (length (firstn n l)) l = firstn n l.
Proof.
  revert l. induction n as [|n IH]; intros [|a l]; cbn; try reflexivity. f_equal. apply IH.
Qed.

Lemma firstn_min_length {A} n (l : list A) : firstn (Nat.min n (length l)) l = firstn n l.
Proof. rewrite <- firstn_firstn, firstn_all. reflexivity. Qed.

Lemma firstn_add {A} n m (l : list A) : firstn (n + m) l = firstn n l ++ firstn m (skipn n l).
Proof.
  revert l. induction n as [|n IH]; intros [|x l]; cbn [Nat.add firstn skipn app]; try reflexivity.
  - symmetry. apply firstn_nil.
  - f_equal. apply IH.
Qed.

Lemma skipn_nth_error_cons {A} (l : list A) n x :
  nth_error l n = Some x -> skipn n l = x :: skipn (S n) l.
Proof.
  revert l. induction n as [|n IH]; intros [|a l] H; cbn in H; try discriminate.
  - injection H as ->. reflexivity.
  - cbn [skipn]. rewrite (IH l H). reflexivity.
Qed.

Lemma skipn_middle {A} (p : list A) x t : skipn (S (length p)) (p ++ x :: t) = t.
Proof. induction p as [|a p IH]; [reflexivity|exact IH]. Qed.

Lemma nth_error_middle {A} (p : list A) x t : nth_error (p ++ x :: t) (length p) = Some x.
Proof. induction p as [|a p IH]; [reflexivity|exact IH]. Qed.

Lemma nth_error_firstn_lt {A} n k (l : list A) : k < n -> nth_error (firstn n l) k = nth_error l k.
Proof.
  revert k l. induction n as [|n IH]; intros k l H; [destruct (Nat.nlt_0_r _ H)|].
  destruct l as [|a l]; [reflexivity|]. destruct k as [|k]; cbn; [reflexivity|]. apply IH, Nat.succ_lt_mono, H.
Qed.

Lemma nth_error_firstn_some {A} n (l : list A) k x : nth_error (firstn n l) k = Some x -> nth_error l k = Some x.
Proof.
  intros H. rewrite <- (firstn_skipn n l), nth_error_app1; [exact H|]. apply nth_error_Some. congruence.
Qed.

Lemma nth_error_skipn_add {A} s k (l : list A) : nth_error (skipn s l) k = nth_error l (s + k).
Proof.
  revert l. induction s as [|s IH]; intros l; [reflexivity|].
  destruct l as [|a l]; cbn [skipn Nat.add nth_error]; [destruct k; reflexivity|]. apply IH.
Qed.

Lemma last_nth_error {A} (l : list A) d : l <> [] -> nth_error l (length l - 1) = Some (last l d).
Proof.
  intros H. destruct (exists_last H) as (l' & a & ->).
  rewrite last_last, app_length, Nat.add_sub. apply nth_error_middle.
Qed.

Lemma filter_all {A} (f : A -> bool) l : Forall (fun a => f a = true) l -> filter f l = l.
Proof. induction 1 as [|a r Ha _ IH]; cbn [filter]; [reflexivity|]. rewrite Ha, IH. reflexivity. Qed.

Lemma filter_length_le {A} (f : A -> bool) l : length (filter f l) <= length l.
Proof.
  induction l as [|a r IH]; cbn [filter length]; [apply le_n|].
  destruct (f a); cbn [length]; [apply le_n_S, IH|apply le_S, IH].
Qed.

Lemma Forall_filter_true {A} (f : A -> bool) l : Forall (fun x => f x = true) (filter f l).
Proof. apply Forall_forall. intros x Hx. apply filter_In in Hx. tauto. Qed.

Lemma Forall_firstn {A} (P : A -> Prop) n (l : list A) : Forall P l -> Forall P (firstn n l).
Proof. intros H. rewrite <- (firstn_skipn n l) in H. apply Forall_app in H. apply H. Qed.

Lemma existsb_false_Forall {A} (f : A -> bool) l : existsb f l = false <-> Forall (fun x => f x = false) l.
Proof.
  induction l as [|a l IH]; cbn [existsb].
  - split; [constructor|reflexivity].
  - rewrite orb_false_iff, IH. split.
    + intros [H1 H2]. now constructor.
    + intros H. inversion H; subst. now split.
Qed.

(* the two ways the models test membership of a number *)
Lemma existsb_eqb_In t l : existsb (N.eqb t) l = true <-> In t l.
Proof.
  rewrite existsb_exists. split.
  - intros (x & Hx & E). apply N.eqb_eq in E. now subst.
  - intros H. exists t. split; [assumption|apply N.eqb_refl].
Qed.

Lemma existsb_eqb_In_map {A} (f : A -> N) l i : existsb (fun x => N.eqb (f x) i) l = true <-> In i (map f l).
Proof.
  rewrite existsb_exists, in_map_iff.
  split; intros (x & H1 & H2); exists x; [apply N.eqb_eq in H2|apply N.eqb_eq in H1]; auto.
Qed.

Lemma NoDup_app_iff {A} (l1 l2 : list A) :
  NoDup (l1 ++ l2) <-> NoDup l1 /\ NoDup l2 /\ forall x, In x l1 -> ~ In x l2.
Proof.
  induction l1 as [|a l1 IH]; cbn [app].
  - split.
    + intros H. repeat split; [constructor|exact H|intros x []].
    + intros (_ & H & _). exact H.
  - rewrite !NoDup_cons_iff, IH, in_app_iff. split.
    + intros (Ha & H1 & H2 & Hd). repeat split; auto. intros x [<-|Hx]; auto.
    + intros ((Ha & H1) & H2 & Hd). repeat split; auto.
      * intros [H|H]; [exact (Ha H)|exact (Hd a (or_introl eq_refl) H)].
      * intros x Hx. apply Hd. right. exact Hx.
Qed.

Lemma NoDup_app_l {A} (l1 l2 : list A) : NoDup (l1 ++ l2) -> NoDup l1.
Proof. intros H. apply NoDup_app_iff in H. apply H. Qed.

Lemma NoDup_snoc {A} (l : list A) x : NoDup (l ++ [x]) <-> NoDup l /\ ~ In x l.
Proof. pose proof (NoDup_Add (Add_app x l [])) as H. rewrite app_nil_r in H. exact H. Qed.

Lemma NoDup_firstn {A} n (l : list A) : NoDup l -> NoDup (firstn n l).
Proof. intros H. rewrite <- (firstn_skipn n l) in H. exact (NoDup_app_l _ _ H). Qed.

Lemma NoDup_flat_map {A B} (f : A -> list B) (l : list A) :
  NoDup l -> Forall (fun x => NoDup (f x)) l ->
  (forall x y t, In x l -> In y l -> In t (f x) -> In t (f y) -> x = y) ->
  NoDup (flat_map f l).
Proof.
  induction l as [|a r IH]; intros Hnd Hd Hinj; cbn [flat_map]; [constructor|].
  apply NoDup_cons_iff in Hnd as [Ha Hr]. apply Forall_cons_iff in Hd as [Hda Hdr].
  apply NoDup_app_iff. split; [exact Hda|]. split.
  - apply IH; auto. intros x y t Hx Hy. apply Hinj; now right.
  - intros t Ht Hin. apply in_flat_map in Hin as (y & Hy & Hty).
    assert (a = y) as -> by (apply (Hinj a y t); [now left|now right|exact Ht|exact Hty]).
    exact (Ha Hy).
Qed.

Lemma NoDup_map_snoc {A B} (f : A -> B) l x :
  NoDup (map f l) -> (forall y, In y l -> f y <> f x) -> NoDup (map f (l ++ [x])).
Proof.
  intros ND H. rewrite map_app. apply NoDup_snoc. split; [exact ND|].
  intros Hin. apply in_map_iff in Hin. destruct Hin as (y & E & Hy). exact (H y Hy E).
Qed.

Lemma NoDup_map_filter {A B} (f : A -> B) p l : NoDup (map f l) -> NoDup (map f (filter p l)).
Proof.
  induction l as [|a l IH]; cbn; intros H; [constructor|].
  apply NoDup_cons_iff in H. destruct H as [Na H]. destruct (p a); [|exact (IH H)].
  cbn. constructor; [|exact (IH H)].
  intros Hin. apply Na. apply in_map_iff in Hin. destruct Hin as (x & Hx & Hin).
  apply filter_In in Hin. apply in_map_iff. exists x. tauto.
Qed.

Lemma NoDup_map_inj_in {A B} (f : A -> B) l x y :
  NoDup (map f l) -> In x l -> In y l -> f x = f y -> x = y.
Proof.
  induction l as [|a l IH]; cbn; intros H Hx Hy E; [contradiction|].
  apply NoDup_cons_iff in H. destruct H as [Na H].
  destruct Hx as [->|Hx], Hy as [->|Hy]; auto.
  - destruct Na. rewrite E. apply in_map; assumption.
  - destruct Na. rewrite <- E. apply in_map; assumption.
Qed.

Lemma ForallOrdPairs_filter {A} (R : A -> A -> Prop) (f : A -> bool) l :
  ForallOrdPairs R l -> ForallOrdPairs R (filter f l).
Proof.
  induction 1 as [|a l Ha _ IH]; cbn [filter]; [constructor|].
  destruct (f a); [|assumption]. constructor; [|assumption].
  eapply incl_Forall; [apply incl_filter|exact Ha].
Qed.

Lemma ForallOrdPairs_snoc {A} (R : A -> A -> Prop) l t :
  ForallOrdPairs R l -> Forall (fun a => R a t) l -> ForallOrdPairs R (l ++ [t]).
Proof.
  induction 1 as [|a l Ha _ IH]; intros Ht; cbn [app].
  - constructor; constructor.
  - inversion Ht as [|? ? Hat Ht']; subst. constructor; [|now apply IH].
    apply Forall_app. split; [assumption|]. constructor; [assumption|constructor].
Qed.

Lemma StronglySorted_filter {A} (R : A -> A -> Prop) (f : A -> bool) l :
  StronglySorted R l -> StronglySorted R (filter f l).
Proof.
  induction 1 as [|a r Hr IH Ha]; cbn [filter]; [constructor|].
  destruct (f a); auto. constructor; auto.
  eapply incl_Forall; [apply incl_filter|exact Ha].
Qed.

Lemma StronglySorted_app_mid {A} (R : A -> A -> Prop) p x suf :
  StronglySorted R (p ++ x :: suf) -> Forall (R x) suf.
Proof.
  induction p as [|a p IH]; cbn; intros H; inversion H; subst; auto.
Qed.
