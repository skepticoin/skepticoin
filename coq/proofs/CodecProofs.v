(* Proofs about the byte-level codecs of model/Codec.v. What is shown of every codec pair is collected in
   [codec_ok]:
     round trip                wf x = true -> dec (enc x ++ r) = Some (x, r)
     canonicity, decoded wf    bytes_wf bs -> dec bs = Some (x, r) -> bs = enc x ++ r /\ wf x = true /\ bytes_wf r
     encodings are bytes       wf x = true -> bytes_wf (enc x)
   with its consequences for any codec (prefix code, injectivity, truncation, lists), one [T_codec] per type, and what
   the property theorems use of them (consumed bytes, signable). *)
From Coq Require Import NArith List Lia Bool Arith.
From SkV Require Import Bytes Vlq Codec VlqProofs.
From SkV Require Export BytesProofs.
Import ListNotations.
Open Scope N_scope.

Lemma bytes_wf_nil : bytes_wf [].
Proof. constructor. Qed.

Lemma pow256_pos n : 0 < 256 ^ n.
Proof. apply N.neq_0_lt_0, N.pow_nonzero; discriminate. Qed.

Lemma len_is_iff n b : len_is n b = true <-> length b = n /\ bytes_wf b.
Proof. unfold len_is. rewrite andb_true_iff, Nat.eqb_eq, bytes_wfb_iff. tauto. Qed.

Lemma len_is_wf n b : len_is n b = true -> bytes_wf b.
Proof. intros H. apply len_is_iff in H. tauto. Qed.

Lemma len_is_length n b : len_is n b = true -> length b = n.
Proof. intros H. apply len_is_iff in H. tauto. Qed.

(* a length read from the wire, as in [take (N.to_nat n)] *)
Lemma len_is_to_nat n b : len_is (N.to_nat n) b = true -> N.of_nat (length b) = n /\ bytes_wfb b = true.
Proof. intros H. apply len_is_iff in H as [-> H]. split; [apply N2Nat.id|apply bytes_wfb_iff, H]. Qed.

Lemma take_rt n a r : len_is n a = true -> take n (a ++ r) = Some (a, r).
Proof. intros H. apply take_app, len_is_length, H. Qed.

Lemma take_inv_wf n bs a r : bytes_wf bs -> take n bs = Some (a, r) ->
  bs = a ++ r /\ len_is n a = true /\ bytes_wf r.
Proof.
  intros Hwf H. apply take_inv in H as [-> Hl]. apply bytes_wf_app in Hwf as [Ha Hr].
  rewrite len_is_iff. auto.
Qed.

Lemma consumed_app a r : consumed (a ++ r) r = a.
Proof. unfold consumed. rewrite app_length, Nat.add_sub, firstn_app, Nat.sub_diag, firstn_all, app_nil_r. reflexivity. Qed.

Record codec_ok {A : Type} (wf : A -> bool) (enc : A -> bytes) (dec : bytes -> option (A * bytes)) : Prop := {
  ok_rt  : forall x r, wf x = true -> dec (enc x ++ r) = Some (x, r);
  ok_inv : forall bs x r, bytes_wf bs -> dec bs = Some (x, r) -> bs = enc x ++ r /\ wf x = true /\ bytes_wf r;
  ok_enc : forall x, wf x = true -> bytes_wf (enc x) }.
Arguments ok_rt {A wf enc dec}.
Arguments ok_inv {A wf enc dec}.
Arguments ok_enc {A wf enc dec}.

(* By the round trip alone the encodings form a prefix code, and so are injective.  Stated of a bare round trip, so
   that it also reaches decoders that are not canonical (WireProofs.codec_rt, through its field rt_rt). *)
Lemma enc_prefix_free_of_rt {A : Type} {wf : A -> bool} {enc : A -> bytes} {dec : bytes -> option (A * bytes)} :
  (forall x r, wf x = true -> dec (enc x ++ r) = Some (x, r)) ->
  forall x y r r', wf x = true -> wf y = true -> enc x ++ r = enc y ++ r' -> x = y /\ r = r'.
Proof.
  intros R x y r r' Hx Hy E. pose proof (R x r Hx) as H. rewrite E, (R y r' Hy) in H. injection H as -> ->. auto.
Qed.

Lemma enc_inj_of_rt {A : Type} {wf : A -> bool} {enc : A -> bytes} {dec : bytes -> option (A * bytes)} :
  (forall x r, wf x = true -> dec (enc x ++ r) = Some (x, r)) ->
  forall a b, wf a = true -> wf b = true -> enc a = enc b -> a = b.
Proof. intros R a b Ha Hb E. apply (enc_prefix_free_of_rt R a b [] [] Ha Hb). rewrite E. reflexivity. Qed.

Section Codec.
  Context {A : Type} {wf : A -> bool} {enc : A -> bytes} {dec : bytes -> option (A * bytes)}.
  Hypothesis ok : codec_ok wf enc dec.

  Lemma ok_rt_nil x : wf x = true -> dec (enc x) = Some (x, []).
  Proof. intros Hx. rewrite <- (app_nil_r (enc x)). apply (ok_rt ok), Hx. Qed.

  Lemma ok_canonical bs x r : bytes_wf bs -> dec bs = Some (x, r) -> enc x ++ r = bs.
  Proof. intros Hwf H. symmetry. apply (ok_inv ok _ _ _ Hwf H). Qed.

  Lemma ok_wf bs x r : bytes_wf bs -> dec bs = Some (x, r) -> wf x = true /\ bytes_wf r.
  Proof. intros Hwf H. apply (ok_inv ok _ _ _ Hwf H). Qed.

  Lemma ok_prefix_free x y r r' : wf x = true -> wf y = true -> enc x ++ r = enc y ++ r' -> x = y /\ r = r'.
  Proof. apply (enc_prefix_free_of_rt (ok_rt ok)). Qed.

  Lemma ok_inj a b : wf a = true -> wf b = true -> enc a = enc b -> a = b.
  Proof. apply (enc_inj_of_rt (ok_rt ok)). Qed.

  Lemma ok_nonempty x : dec [] = None -> wf x = true -> (0 < length (enc x))%nat.
  Proof.
    intros Hnil Hx. pose proof (ok_rt_nil x Hx) as H.
    destruct (enc x); [congruence|apply Nat.lt_0_succ].
  Qed.

  Lemma ok_dec_extend bs t x r : bytes_wf bs -> dec bs = Some (x, r) -> dec (bs ++ t) = Some (x, r ++ t).
  Proof.
    intros Hwf H. destruct (ok_inv ok _ _ _ Hwf H) as (-> & Hx & _). rewrite <- app_assoc. apply (ok_rt ok), Hx.
  Qed.

  Lemma ok_truncated x n : wf x = true -> (n < length (enc x))%nat -> dec (firstn n (enc x)) = None.
  Proof.
    intros Hx Hn. destruct (dec (firstn n (enc x))) as [[y r]|] eqn:H; [exfalso|reflexivity].
    (* appending the bytes cut off gives back enc x, which decodes to x with nothing left: nothing was cut off *)
    apply (ok_dec_extend _ (skipn n (enc x))) in H; [|apply bytes_wf_firstn, (ok_enc ok), Hx].
    rewrite firstn_skipn, (ok_rt_nil x Hx) in H.
    injection H as _ Hr. symmetry in Hr. apply app_eq_nil in Hr as [_ Hr].
    apply (f_equal (@length N)) in Hr. rewrite skipn_length in Hr. cbn [length] in Hr. lia.
  Qed.
End Codec.

Lemma take_codec n : codec_ok (len_is n) (fun h => h) (take n).
Proof. split; [apply take_rt|apply take_inv_wf|apply len_is_wf]. Qed.

Lemma be_codec w : codec_ok (fun v => v <? 256 ^ N.of_nat w) (be_enc w) (dec_be w).
Proof. split; [apply dec_be_rt|apply dec_be_inv|intros; apply be_enc_wf]. Qed.

Lemma vlq_codec : codec_ok (fun _ => true) vlq_enc vlq_dec.
Proof.
  split.
  - intros v r _. apply vlq_roundtrip.
  - intros bs v r Hwf H. pose proof (vlq_canonical _ _ _ Hwf H) as <-. apply bytes_wf_app in Hwf as [_ Hr]. auto.
  - intros v _. apply vlq_enc_wf.
Qed.

(* dec_elems one step unfolded: a count of 0 returns at once, whatever the fuel *)
Lemma dec_elems_eq {A} (dec : bytes -> option (A * bytes)) fuel count bs :
  dec_elems dec fuel count bs =
  if count =? 0 then Some ([], bs) else
  match fuel with
  | O => None
  | S f => match dec bs with
           | Some (x, r) => match dec_elems dec f (count - 1) r with
                            | Some (xs, r') => Some (x :: xs, r')
                            | None => None
                            end
           | None => None
           end
  end.
Proof. destruct fuel; reflexivity. Qed.

Section ListCodec.
  Context {A : Type} {wf : A -> bool} {enc : A -> bytes} {dec : bytes -> option (A * bytes)}.
  Hypothesis ok : codec_ok wf enc dec.
  (* Every element decoder of the protocol refuses the empty string, by computation ([list_codec c eq_refl]); so every
     element encoding is non-empty, and the remaining length is enough fuel for dec_elems. *)
  Hypothesis Hnil : dec [] = None.

  Lemma concat_enc_length l : forallb wf l = true -> (length l <= length (concat (map enc l)))%nat.
  Proof.
    induction l as [|x l IH]; cbn [forallb map concat length]; intros H; [apply Nat.le_0_l|].
    apply andb_true_iff in H as [Hx Hl]. rewrite app_length. specialize (IH Hl).
    pose proof (ok_nonempty ok x Hnil Hx). lia.
  Qed.

  Lemma dec_elems_rt l : forall fuel r, forallb wf l = true -> (length l <= fuel)%nat ->
    dec_elems dec fuel (N.of_nat (length l)) (concat (map enc l) ++ r) = Some (l, r).
  Proof.
    induction l as [|x l IH]; intros fuel r Hwf Hf; [destruct fuel; reflexivity|].
    cbn [forallb length map concat] in *. apply andb_true_iff in Hwf as [Hx Hl].
    destruct fuel as [|f]; [inversion Hf|]. apply le_S_n in Hf.
    rewrite Nat2N.inj_succ. cbn [dec_elems]. rewrite (proj2 (N.eqb_neq _ 0) (N.neq_succ_0 _)).
    rewrite <- app_assoc, (ok_rt ok x _ Hx), N.sub_1_r, N.pred_succ, IH by assumption. reflexivity.
  Qed.

  Lemma dec_elems_inv fuel : forall count bs l r, bytes_wf bs -> dec_elems dec fuel count bs = Some (l, r) ->
    count = N.of_nat (length l) /\ bs = concat (map enc l) ++ r /\ forallb wf l = true /\ bytes_wf r.
  Proof.
    induction fuel as [|f IH]; intros count bs l r Hwf H; rewrite dec_elems_eq in H;
      destruct (N.eqb_spec count 0) as [->|Hc].
    - injection H as <- <-. auto.
    - discriminate.
    - injection H as <- <-. auto.
    - destruct (dec bs) as [[x r0]|] eqn:Hd; [|discriminate].
      destruct (dec_elems dec f (count - 1) r0) as [[xs r1]|] eqn:Hrec; [|discriminate].
      injection H as <- <-. destruct (ok_inv ok _ _ _ Hwf Hd) as (-> & Hx & Hr0).
      destruct (IH _ _ _ _ Hr0 Hrec) as (Hn & -> & Hxs & Hr).
      cbn [length map concat forallb]. rewrite Hx, Hxs, <- app_assoc. split; [lia|auto].
  Qed.

  Theorem list_codec : codec_ok (forallb wf) (enc_list enc) (dec_list dec).
  Proof.
    split.
    - intros l r Hl. unfold dec_list, enc_list. rewrite <- app_assoc, vlq_roundtrip.
      apply dec_elems_rt; [exact Hl|]. rewrite app_length. pose proof (concat_enc_length l Hl). lia.
    - intros bs l r Hwf H. unfold dec_list in H. destruct (vlq_dec bs) as [[n r0]|] eqn:Hv; [|discriminate].
      destruct (ok_inv vlq_codec _ _ _ Hwf Hv) as (-> & _ & Hr0).
      destruct (dec_elems_inv _ _ _ _ _ Hr0 H) as (-> & -> & Hl & Hr). unfold enc_list. rewrite <- app_assoc. auto.
    - intros l Hl. apply bytes_wf_app. split; [apply vlq_enc_wf|].
      induction l as [|x l IH]; [constructor|]. cbn [forallb map concat] in *. apply andb_true_iff in Hl as [Hx Hl].
      apply bytes_wf_app. split; [apply (ok_enc ok), Hx|apply IH, Hl].
  Qed.
End ListCodec.

(* Tactics for the codecs of records: a decoder is a chain of reads, an encoder a concatenation, wf a conjunction. *)

(* [H : match d with Some (a, b) => ... | None => None end = Some _], with [lem] the inversion fact ([ok_inv], or a
   lemma of the same shape) of the decoder applied in [d]: destruct, discard the None branch, invert, substitute. *)
Ltac step lem H :=
  match type of H with
  | context [match ?d with _ => _ end] =>
      let E := fresh "E" in
      destruct d as [[? ?]|] eqn:E; [|discriminate H];
      eapply lem in E; [|eassumption]; destruct E as (? & ? & ?); subst;
      cbv beta iota in H
  end.

Ltac split_andb :=
  repeat match goal with
         | H : _ && _ = true |- _ => apply andb_true_iff in H; destruct H
         end.

(* a conjunction of booleans each of which is a hypothesis (up to conversion, see dec_be_inv) *)
Ltac solve_andb := repeat match goal with |- _ && _ = true => apply andb_true_intro; split end; assumption.

(* the goal of [ok_inv] after the last [step] and [injection H as <- <-], encoder and wf unfolded: the bytes read are the
   encoding up to association, and every conjunct of wf was left by a step *)
Ltac finish := split; [rewrite <- ?app_assoc; reflexivity|]; split; [solve_andb|assumption].

(* a concatenation of fields each of which is plainly a byte string (an integer, a checked field, literal tag
   bytes); what is left needs the codec of a part *)
Ltac solve_bytes_wf :=
  repeat match goal with |- bytes_wf (_ ++ _) => apply bytes_wf_app; split end;
  try solve [ apply be_enc_wf | apply vlq_enc_wf | apply zeros_wf | eapply len_is_wf; eassumption
            | apply bytes_wfb_iff; (assumption || reflexivity) ].

(* resolve the leading tag bytes of a decoder: destruct the variables scrutinised in [H] until a decoder call
   is reached, discarding the impossible branches; then drop the tag bytes from the hypothesis [bytes_wf (_ :: _)] *)
Ltac destr_tags H :=
  repeat (match type of H with
          | context [match ?x with _ => _ end] => is_var x; destruct x; cbv beta iota in H; try discriminate H
          end);
  repeat match goal with Hw : bytes_wf (_ :: _) |- _ => apply bytes_wf_cons in Hw as [_ Hw] end.

Lemma outref_codec : codec_ok wf_outref enc_outref dec_outref.
Proof.
  split.
  - intros x r H. unfold wf_outref, enc_outref in *. split_andb. rewrite <- app_assoc. unfold dec_outref.
    rewrite take_rt by assumption. cbv beta iota.
    rewrite dec_be_rt by assumption. destruct x; reflexivity.
  - intros bs x r Hwf H. unfold dec_outref in H. step take_inv_wf H. step dec_be_inv H.
    injection H as <- <-. unfold enc_outref, wf_outref. finish.
  - intros x H. unfold wf_outref, enc_outref in *. split_andb. solve_bytes_wf.
Qed.

Theorem dec_outref_wf bs x r : bytes_wf bs -> dec_outref bs = Some (x, r) -> wf_outref x = true /\ bytes_wf r.
Proof. apply (ok_wf outref_codec). Qed.
Theorem enc_outref_inj a b : wf_outref a = true -> wf_outref b = true -> enc_outref a = enc_outref b -> a = b.
Proof. apply (ok_inj outref_codec). Qed.

Lemma enc_outref_length x : wf_outref x = true -> length (enc_outref x) = 36%nat.
Proof.
  unfold wf_outref, enc_outref. intros H. split_andb.
  rewrite app_length, be_enc_length. erewrite len_is_length by eassumption. reflexivity.
Qed.

Lemma sig_codec : codec_ok wf_sig enc_sig dec_sig.
Proof.
  split.
  - intros [|h d|s] r H; unfold wf_sig, enc_sig in *.
    + reflexivity.
    + split_andb. rewrite <- !app_assoc. cbn [app]. unfold dec_sig.
      rewrite dec_be_rt by assumption. cbv beta iota.
      rewrite dec_be_rt by assumption. cbv beta iota.
      rewrite Nat2N.id, take_app by reflexivity. reflexivity.
    + cbn [app]. unfold dec_sig. rewrite take_rt by assumption. reflexivity.
  - intros bs x r Hwf H. unfold dec_sig in H. destr_tags H.
    + (* tag 0 *) injection H as <- <-. auto.
    + (* tag 2 *) step take_inv_wf H. injection H as <- <-. auto.
    + (* tag 1 *) step dec_be_inv H. step dec_be_inv H. step take_inv_wf H.
      match goal with L : len_is (N.to_nat _) _ = true |- _ => apply len_is_to_nat in L as [<- ?] end.
      injection H as <- <-. unfold enc_sig, wf_sig. finish.
  - intros [|h d|s] H; unfold wf_sig, enc_sig in *; split_andb; solve_bytes_wf.
Qed.

Theorem dec_sig_wf bs x r : bytes_wf bs -> dec_sig bs = Some (x, r) -> wf_sig x = true /\ bytes_wf r.
Proof. apply (ok_wf sig_codec). Qed.

Lemma pk_codec : codec_ok (len_is 64) enc_pk dec_pk.
Proof.
  split.
  - intros x r H. unfold enc_pk. cbn [app]. unfold dec_pk. apply take_rt, H.
  - intros bs x r Hwf H. unfold dec_pk in H. destr_tags H.
    destruct (take_inv_wf _ _ _ _ Hwf H) as (-> & Hx & Hr). auto.
  - intros x H. unfold enc_pk. solve_bytes_wf.
Qed.

Theorem dec_pk_wf bs x r : bytes_wf bs -> dec_pk bs = Some (x, r) -> len_is 64 x = true /\ bytes_wf r.
Proof. apply (ok_wf pk_codec). Qed.

Lemma input_codec : codec_ok wf_input enc_input dec_input.
Proof.
  split.
  - intros x r H. unfold wf_input, enc_input in *. split_andb. rewrite <- app_assoc. unfold dec_input.
    rewrite (ok_rt outref_codec) by assumption. cbv beta iota.
    rewrite (ok_rt sig_codec) by assumption. destruct x; reflexivity.
  - intros bs x r Hwf H. unfold dec_input in H. step (ok_inv outref_codec) H. step (ok_inv sig_codec) H.
    injection H as <- <-. unfold enc_input, wf_input. finish.
  - intros x H. unfold wf_input, enc_input in *. split_andb.
    apply bytes_wf_app. split; [apply (ok_enc outref_codec)|apply (ok_enc sig_codec)]; assumption.
Qed.

Theorem enc_input_inj a b : wf_input a = true -> wf_input b = true -> enc_input a = enc_input b -> a = b.
Proof. apply (ok_inj input_codec). Qed.

Lemma output_codec : codec_ok wf_output enc_output dec_output.
Proof.
  split.
  - intros x r H. unfold wf_output, enc_output in *. split_andb. rewrite <- app_assoc. unfold dec_output.
    rewrite dec_be_rt by assumption. cbv beta iota.
    rewrite (ok_rt pk_codec) by assumption. destruct x; reflexivity.
  - intros bs x r Hwf H. unfold dec_output in H. step dec_be_inv H. step (ok_inv pk_codec) H.
    injection H as <- <-. unfold enc_output, wf_output. finish.
  - intros x H. unfold wf_output, enc_output in *. split_andb.
    apply bytes_wf_app. split; [apply be_enc_wf|apply (ok_enc pk_codec); assumption].
Qed.

Theorem enc_output_inj a b : wf_output a = true -> wf_output b = true -> enc_output a = enc_output b -> a = b.
Proof. apply (ok_inj output_codec). Qed.

Definition inputs_codec := list_codec input_codec eq_refl.
Definition outputs_codec := list_codec output_codec eq_refl.

Lemma tx_codec : codec_ok wf_tx enc_tx dec_tx.
Proof.
  split.
  - intros x r H. unfold wf_tx, enc_tx in *. split_andb. rewrite <- !app_assoc. cbn [app]. unfold dec_tx.
    rewrite (ok_rt inputs_codec) by assumption. cbv beta iota.
    rewrite (ok_rt outputs_codec) by assumption. destruct x; reflexivity.
  - intros bs x r Hwf H. unfold dec_tx in H. destr_tags H.
    step (ok_inv inputs_codec) H. step (ok_inv outputs_codec) H.
    injection H as <- <-. unfold enc_tx, wf_tx. finish.
  - intros x H. unfold wf_tx, enc_tx in *. split_andb. solve_bytes_wf.
    + apply (ok_enc inputs_codec). assumption.
    + apply (ok_enc outputs_codec). assumption.
Qed.

Definition txs_codec := list_codec tx_codec eq_refl.

Lemma evidence_codec : codec_ok wf_evidence enc_evidence dec_evidence.
Proof.
  split.
  - intros x r H. unfold wf_evidence, enc_evidence in *. split_andb. rewrite <- !app_assoc. unfold dec_evidence.
    rewrite take_rt by assumption. cbv beta iota.
    rewrite take_rt by assumption. cbv beta iota.
    rewrite take_rt by assumption. destruct x; reflexivity.
  - intros bs x r Hwf H. unfold dec_evidence in H. step take_inv_wf H. step take_inv_wf H. step take_inv_wf H.
    injection H as <- <-. unfold enc_evidence, wf_evidence. finish.
  - intros x H. unfold wf_evidence, enc_evidence in *. split_andb. solve_bytes_wf.
Qed.

Theorem dec_evidence_wf bs x r : bytes_wf bs -> dec_evidence bs = Some (x, r) -> wf_evidence x = true /\ bytes_wf r.
Proof. apply (ok_wf evidence_codec). Qed.

Lemma enc_evidence_length e : wf_evidence e = true -> length (enc_evidence e) = 96%nat.
Proof.
  unfold wf_evidence, enc_evidence. intros H. split_andb.
  rewrite !app_length. repeat erewrite len_is_length by eassumption. reflexivity.
Qed.

Lemma summary_codec : codec_ok wf_summary enc_summary dec_summary.
Proof.
  split.
  - intros x r H. unfold wf_summary, enc_summary in *. split_andb. rewrite <- !app_assoc. unfold dec_summary.
    rewrite vlq_roundtrip. cbv beta iota.
    rewrite take_rt by assumption. cbv beta iota.
    rewrite take_rt by assumption. cbv beta iota.
    rewrite dec_be_rt by assumption. cbv beta iota.
    rewrite take_rt by assumption. cbv beta iota.
    rewrite dec_be_rt by assumption. destruct x; reflexivity.
  - intros bs x r Hwf H. unfold dec_summary in H. step (ok_inv vlq_codec) H.
    step take_inv_wf H. step take_inv_wf H. step dec_be_inv H. step take_inv_wf H. step dec_be_inv H.
    injection H as <- <-. unfold enc_summary, wf_summary. finish.
  - intros x H. unfold wf_summary, enc_summary in *. split_andb. solve_bytes_wf.
Qed.

Theorem dec_summary_wf bs x r : bytes_wf bs -> dec_summary bs = Some (x, r) -> wf_summary x = true /\ bytes_wf r.
Proof. apply (ok_wf summary_codec). Qed.

Lemma header_codec : codec_ok wf_header enc_header dec_header.
Proof.
  split.
  - intros x r H. unfold wf_header, enc_header in *. split_andb. rewrite <- !app_assoc. cbn [app]. unfold dec_header.
    rewrite (ok_rt summary_codec) by assumption. cbv beta iota.
    rewrite (ok_rt evidence_codec) by assumption. destruct x; reflexivity.
  - intros bs x r Hwf H. unfold dec_header in H. destr_tags H.
    step (ok_inv summary_codec) H. step (ok_inv evidence_codec) H.
    injection H as <- <-. unfold enc_header, wf_header. finish.
  - intros x H. unfold wf_header, enc_header in *. split_andb. solve_bytes_wf.
    + apply (ok_enc summary_codec). assumption.
    + apply (ok_enc evidence_codec). assumption.
Qed.

Lemma block_codec : codec_ok wf_block enc_block dec_block.
Proof.
  split.
  - intros x r H. unfold wf_block, enc_block in *. split_andb. rewrite <- app_assoc. unfold dec_block.
    rewrite (ok_rt header_codec) by assumption. cbv beta iota.
    rewrite (ok_rt txs_codec) by assumption. destruct x; reflexivity.
  - intros bs x r Hwf H. unfold dec_block in H. step (ok_inv header_codec) H. step (ok_inv txs_codec) H.
    injection H as <- <-. unfold enc_block, wf_block. finish.
  - intros x H. unfold wf_block, enc_block in *. split_andb.
    apply bytes_wf_app. split; [apply (ok_enc header_codec)|apply (ok_enc txs_codec)]; assumption.
Qed.

(* the id cached at decode time (hash of the consumed bytes) is the hash of the canonical encoding *)
Theorem dec_tx_id_canonical sha bs t id r : bytes_wf bs -> dec_tx_id sha bs = Some (t, id, r) -> id = tx_id sha t.
Proof.
  intros Hwf H. unfold dec_tx_id in H. destruct (dec_tx bs) as [[t0 r0]|] eqn:E; [|discriminate].
  injection H as <- <- <-. destruct (ok_inv tx_codec _ _ _ Hwf E) as (-> & _ & _).
  rewrite consumed_app. reflexivity.
Qed.

Theorem dec_block_id_canonical sha bs b id r : bytes_wf bs -> dec_block_id sha bs = Some (b, id, r) ->
  id = block_id sha b.
Proof.
  intros Hwf H. unfold dec_block_id in H. destruct (dec_header bs) as [[h r0]|] eqn:E; [|discriminate].
  destruct (dec_list dec_tx r0) as [[ts r1]|]; [|discriminate].
  injection H as <- <- <-. destruct (ok_inv header_codec _ _ _ Hwf E) as (-> & _ & _).
  rewrite consumed_app. reflexivity.
Qed.

(* dec_block_id decodes exactly what dec_block decodes *)
Lemma dec_block_id_dec_block sha bs b id r : dec_block_id sha bs = Some (b, id, r) -> dec_block bs = Some (b, r).
Proof.
  unfold dec_block_id, dec_block. destruct (dec_header bs) as [[h r0]|]; [|discriminate].
  destruct (dec_list dec_tx r0) as [[ts r1]|]; [|discriminate]. intros [= <- _ <-]. reflexivity.
Qed.

Lemma signable_wf t : wf_tx t = true -> wf_tx (signable t) = true.
Proof.
  unfold wf_tx, signable. cbn [tx_inputs tx_outputs]. intros H. apply andb_true_iff in H as [Hi Ho].
  apply andb_true_iff. split; [|exact Ho].
  rewrite forallb_forall in *. intros x Hx. apply in_map_iff in Hx as (y & <- & Hy).
  specialize (Hi y Hy). unfold wf_input in *. unfold signable_input. cbn [in_ref in_sig wf_sig].
  apply andb_true_iff in Hi as [Hr _]. rewrite Hr. reflexivity.
Qed.

Lemma map_in_ref_signable l : map in_ref (map signable_input l) = map in_ref l.
Proof. rewrite map_map. apply map_ext. intros i. reflexivity. Qed.

Theorem signable_determines a b : wf_tx a = true -> wf_tx b = true ->
  enc_tx (signable a) = enc_tx (signable b) ->
  map in_ref (tx_inputs a) = map in_ref (tx_inputs b) /\ tx_outputs a = tx_outputs b.
Proof.
  intros Ha Hb He. apply (ok_inj tx_codec) in He; [|apply signable_wf; assumption|apply signable_wf; assumption].
  unfold signable in He. injection He as Hi Ho. split; [|exact Ho].
  rewrite <- (map_in_ref_signable (tx_inputs a)), <- (map_in_ref_signable (tx_inputs b)), Hi. reflexivity.
Qed.
