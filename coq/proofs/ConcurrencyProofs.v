(* Two threads over the shared node state of model/NodeModel.v (manager.py ChainManager: the network thread calls
   add_transaction_to_pool, the miner thread calls set_coinstate; both bodies run under self.lock).
   A small-step interleaving model with an explicit lock, and:
     - with both bodies inside the lock every interleaving equals one of the sequential orders of the sequential
       model's handlers (locked_interleavings_serialise; any number of critical sections: locked_threads_linearise),
       and the sequential handlers preserve PoolInv (run_secs_pool_inv), hence so does every interleaving
       (locked_threads_preserve_PoolInv);
     - with the validation hoisted out of the critical section an interleaving commits a stale verdict and breaks
       PoolInv (unlocked_admission_refuted).
   Standard library only. *)
From Coq Require Import NArith List Bool.
From SkV Require Import NodeModel NodeProofs.
Import ListNotations.
Open Scope N_scope.

Inductive action :=
| AAcquire
| ARelease
| AValidate (t : N) (itself_ok : bool)
| ACommit (t : N)
| ASetState (blocks : list ablock) (head : N) (validated : bool).

(* local verdict flag, remaining actions *)
Definition thread := (bool * list action)%type.
(* shared state, lock owner (thread index 0 or 1), thread 0, thread 1 *)
Definition config := (nstate * option nat * thread * thread)%type.

Definition shared (c : config) : nstate := let '(s, _, _, _) := c in s.
Definition finished (c : config) : Prop := let '(_, _, th0, th1) := c in snd th0 = [] /\ snd th1 = [].

Definition prog_admit_locked (t : N) (ok : bool) : list action := [AAcquire; AValidate t ok; ACommit t; ARelease].
Definition prog_admit_unlocked (t : N) (ok : bool) : list action := [AValidate t ok; AAcquire; ACommit t; ARelease].
Definition prog_set (blocks : list ablock) (head : N) (v : bool) : list action :=
  [AAcquire; ASetState blocks head v; ARelease].

(* a critical section of a well-behaved thread *)
Inductive csec :=
| CAdmit (t : N) (ok : bool)
| CSet (blocks : list ablock) (head : N) (v : bool).

Definition prog_of_csec (x : csec) : list action :=
  match x with CAdmit t ok => prog_admit_locked t ok | CSet b h v => prog_set b h v end.
Definition prog_of (l : list csec) : list action := flat_map prog_of_csec l.

(* l is an interleaving of l0 and l1 (each keeps its own order) *)
Inductive merge {A} : list A -> list A -> list A -> Prop :=
| merge_nil : merge [] [] []
| merge_l x l0 l1 l : merge l0 l1 l -> merge (x :: l0) l1 (x :: l)
| merge_r x l0 l1 l : merge l0 l1 l -> merge l0 (x :: l1) (x :: l).

Lemma merge_nil_l {A} (l1 l : list A) : merge [] l1 l -> l = l1.
Proof. remember [] as l0 eqn:E. induction 1; [reflexivity|discriminate|f_equal; auto]. Qed.

Lemma merge_nil_r {A} (l0 l : list A) : merge l0 [] l -> l = l0.
Proof. remember [] as l1 eqn:E. induction 1; [reflexivity|f_equal; auto|discriminate]. Qed.

Lemma merge_one_one {A} (a b : A) l : merge [a] [b] l -> l = [a; b] \/ l = [b; a].
Proof.
  inversion 1 as [|x l0 l1 l' H1|x l0 l1 l' H1]; subst.
  - apply merge_nil_l in H1 as ->. now left.
  - apply merge_nil_r in H1 as ->. now right.
Qed.

Section Concurrency.
  Variable tx_valid_at : N -> N -> bool.
  Variable tx_conflict : N -> N -> bool.

  Notation set_state := (NodeModel.set_state tx_valid_at).
  Notation handle_tx := (NodeModel.handle_tx tx_valid_at tx_conflict).
  Notation admits := (NodeModel.admits tx_valid_at tx_conflict).
  Notation PoolInv := (NodeProofs.PoolInv tx_valid_at tx_conflict).

  (* what AValidate stores in the local flag *)
  Definition vflag (s : nstate) (t : N) (ok : bool) : bool :=
    admits s t ok && negb (existsb (N.eqb t) (ns_pool s)).

  (* what ACommit does to the shared state *)
  Definition commit (s : nstate) (f : bool) (t : N) : nstate :=
    if f then mkNS (ns_blocks s) (ns_head s) (ns_valid_blocks s) (ns_valid_head s) (ns_pool s ++ [t]) (ns_buffer s)
                   (ns_rows s)
    else s.

  (* AValidate followed by ACommit on the same shared state is exactly handle_tx's state effect *)
  Lemma commit_vflag s t ok : commit s (vflag s t ok) t = fst (handle_tx s t ok).
  Proof.
    unfold commit, vflag, NodeModel.handle_tx.
    destruct (existsb (N.eqb t) (ns_pool s)); cbn [negb]; [rewrite andb_false_r; reflexivity|].
    rewrite andb_true_r. destruct (admits s t ok); reflexivity.
  Qed.

  (* one thread (index i) executes its next action *)
  Inductive tstep (i : nat) : nstate * option nat * thread -> nstate * option nat * thread -> Prop :=
  | ts_acquire s f r : tstep i (s, None, (f, AAcquire :: r)) (s, Some i, (f, r))
  | ts_release s f r : tstep i (s, Some i, (f, ARelease :: r)) (s, None, (f, r))
  | ts_validate s lk f t ok r : tstep i (s, lk, (f, AValidate t ok :: r)) (s, lk, (vflag s t ok, r))
  | ts_commit s lk f t r : tstep i (s, lk, (f, ACommit t :: r)) (commit s f t, lk, (f, r))
  | ts_setstate s lk f b h v r : tstep i (s, lk, (f, ASetState b h v :: r)) (set_state s b h v, lk, (f, r)).

  (* either thread may move *)
  Inductive cstep : config -> config -> Prop :=
  | cstep_t0 s lk th0 th1 s' lk' th0' :
      tstep 0 (s, lk, th0) (s', lk', th0') -> cstep (s, lk, th0, th1) (s', lk', th0', th1)
  | cstep_t1 s lk th0 th1 s' lk' th1' :
      tstep 1 (s, lk, th1) (s', lk', th1') -> cstep (s, lk, th0, th1) (s', lk', th0, th1').

  Inductive csteps : config -> config -> Prop :=
  | cs_refl c : csteps c c
  | cs_step c1 c2 c3 : cstep c1 c2 -> csteps c2 c3 -> csteps c1 c3.

  Lemma csteps_trans c1 c2 c3 : csteps c1 c2 -> csteps c2 c3 -> csteps c1 c3.
  Proof. induction 1 as [|a b c Hab _ IH]; [auto|]. intros H. eapply cs_step; [exact Hab|now apply IH]. Qed.

  (* the sequential reference: critical sections run one after the other through the sequential handlers *)

  Definition apply_sec (x : csec) (s : nstate) : nstate :=
    match x with
    | CAdmit t ok => fst (handle_tx s t ok)
    | CSet b h v => set_state s b h v
    end.

  Fixpoint run_secs (s : nstate) (l : list csec) : nstate :=
    match l with
    | [] => s
    | x :: r => run_secs (apply_sec x s) r
    end.

  (* a thread outside its critical sections: the sections in l are still to be run *)
  Definition idle (th : thread) (l : list csec) : Prop := snd th = prog_of l.

  (* a thread holding the lock, the shared state being s: the state effects of the sections in l are still to come *)
  Inductive tphase (s : nstate) : thread -> list csec -> Prop :=
  | PhV f t ok l : tphase s (f, AValidate t ok :: ACommit t :: ARelease :: prog_of l) (CAdmit t ok :: l)
  | PhC t ok l : tphase s (vflag s t ok, ACommit t :: ARelease :: prog_of l) (CAdmit t ok :: l)
  | PhS f b h v l : tphase s (f, ASetState b h v :: ARelease :: prog_of l) (CSet b h v :: l)
  | PhR f l : tphase s (f, ARelease :: prog_of l) l.

  Definition CInv (c : config) (p0 p1 : list csec) : Prop :=
    let '(s, lk, th0, th1) := c in
    match lk with
    | None => idle th0 p0 /\ idle th1 p1
    | Some O => tphase s th0 p0 /\ idle th1 p1
    | Some (S O) => idle th0 p0 /\ tphase s th1 p1
    | Some _ => False
    end.

  (* tstep read as a function of the next action. [inversion] on a tstep says the same, but is slow to check on the
     long thread terms of the two lemmas below. *)
  Lemma tstep_inv i c x :
    tstep i c x ->
    let '(s, lk, (f, acts)) := c in
    match acts with
    | [] => False
    | AAcquire :: r => lk = None /\ x = (s, Some i, (f, r))
    | ARelease :: r => lk = Some i /\ x = (s, None, (f, r))
    | AValidate t ok :: r => x = (s, lk, (vflag s t ok, r))
    | ACommit t :: r => x = (commit s f t, lk, (f, r))
    | ASetState b h v :: r => x = (set_state s b h v, lk, (f, r))
    end.
  Proof. destruct 1; auto. Qed.

  Lemma idle_nil f l : idle (f, []) l -> l = [].
  Proof. unfold idle. cbn [snd]. destruct l as [|[t ok|b h v] l]; [reflexivity|discriminate|discriminate]. Qed.

  (* an idle thread can only acquire the free lock *)
  Lemma tstep_idle i s lk th l s' lk' th' :
    idle th l -> tstep i (s, lk, th) (s', lk', th') ->
    lk = None /\ lk' = Some i /\ s' = s /\ tphase s th' l.
  Proof.
    destruct th as [f acts]. unfold idle. cbn [snd]. intros -> Hst. apply tstep_inv in Hst.
    destruct l as [|[t ok|b h v] l].
    - (* nothing left to run: no step *) contradiction.
    - (* an admission: its first action is AAcquire *)
      destruct Hst as [-> Hx]. injection Hx as -> -> ->. repeat split. constructor.
    - (* a set_state: its first action is AAcquire *)
      destruct Hst as [-> Hx]. injection Hx as -> -> ->. repeat split. constructor.
  Qed.

  (* a thread inside its critical section: a silent step, the section's state effect, or the release *)
  Lemma tstep_crit i s th l s' lk' th' :
    tphase s th l -> tstep i (s, Some i, th) (s', lk', th') ->
    (lk' = Some i /\ s' = s /\ tphase s' th' l) \/
    (lk' = Some i /\ exists x l', l = x :: l' /\ s' = apply_sec x s /\ tphase s' th' l') \/
    (lk' = None /\ s' = s /\ idle th' l).
  Proof.
    intros Hp Hst. apply tstep_inv in Hst. destruct Hp as [f t ok l|t ok l|f b h v l|f l].
    - (* AValidate: silent *)
      injection Hst as -> -> ->. left. repeat split. constructor.
    - (* ACommit: with the flag that AValidate left, the effect of the admission *)
      injection Hst as -> -> ->. right. left. split; [reflexivity|]. exists (CAdmit t ok), l. split; [reflexivity|].
      cbn [apply_sec]. rewrite commit_vflag. split; [reflexivity|constructor].
    - (* ASetState: the effect of the set_state *)
      injection Hst as -> -> ->. right. left. split; [reflexivity|]. exists (CSet b h v), l. repeat split. constructor.
    - (* ARelease *)
      destruct Hst as [_ Hx]. injection Hx as -> -> ->. right. right. repeat split.
  Qed.

  (* A step keeps CInv, and the sections still to be run lose their head exactly when the step has that section's
     effect on the shared state.  The thread that moves holds the lock (tstep_crit), or the lock is free and it
     acquires it (tstep_idle); it cannot move while the other thread holds the lock. *)
  Lemma cstep_CInv c c1 p0 p1 :
    CInv c p0 p1 -> cstep c c1 ->
    (CInv c1 p0 p1 /\ shared c1 = shared c) \/
    (exists x p0', p0 = x :: p0' /\ CInv c1 p0' p1 /\ shared c1 = apply_sec x (shared c)) \/
    (exists x p1', p1 = x :: p1' /\ CInv c1 p0 p1' /\ shared c1 = apply_sec x (shared c)).
  Proof.
    intros HI Hst. destruct Hst as [s lk th0 th1 s' lk' th0' H|s lk th0 th1 s' lk' th1' H]; cbn [CInv shared] in *.
    - destruct lk as [[|[|n]]|].
      + destruct HI as [Hp Hi].
        destruct (tstep_crit _ _ _ _ _ _ _ Hp H) as [(-> & -> & Hp')|[(-> & x & l' & -> & -> & Hp')|(-> & -> & Hi')]].
        * left. auto.
        * right. left. exists x, l'. auto.
        * left. auto.
      + destruct HI as [Hi _]. apply (tstep_idle _ _ _ _ _ _ _ _ Hi) in H as (F & _). discriminate.
      + contradiction.
      + destruct HI as [Hi0 Hi1]. apply (tstep_idle _ _ _ _ _ _ _ _ Hi0) in H as (_ & -> & -> & Hp). left. auto.
    - destruct lk as [[|[|n]]|].
      + destruct HI as [_ Hi]. apply (tstep_idle _ _ _ _ _ _ _ _ Hi) in H as (F & _). discriminate.
      + destruct HI as [Hi Hp].
        destruct (tstep_crit _ _ _ _ _ _ _ Hp H) as [(-> & -> & Hp')|[(-> & x & l' & -> & -> & Hp')|(-> & -> & Hi')]].
        * left. auto.
        * right. right. exists x, l'. auto.
        * left. auto.
      + contradiction.
      + destruct HI as [Hi0 Hi1]. apply (tstep_idle _ _ _ _ _ _ _ _ Hi1) in H as (_ & -> & -> & Hp). left. auto.
  Qed.

  Lemma CInv_finished c p0 p1 : CInv c p0 p1 -> finished c -> p0 = [] /\ p1 = [].
  Proof.
    destruct c as [[[s lk] [f0 a0]] [f1 a1]]. cbn [CInv finished snd]. intros HI [-> ->].
    destruct lk as [[|[|n]]|].
    - destruct HI as [Hp _]. inversion Hp.
    - destruct HI as [_ Hp]. inversion Hp.
    - contradiction.
    - destruct HI as [H0 H1]. split; eapply idle_nil; eassumption.
  Qed.

  Lemma CInv_linearise c c' :
    csteps c c' -> forall p0 p1, CInv c p0 p1 -> finished c' ->
    exists l, merge p0 p1 l /\ shared c' = run_secs (shared c) l.
  Proof.
    induction 1 as [c|c c1 c' Hst _ IH]; intros p0 p1 HI Hfin.
    - destruct (CInv_finished _ _ _ HI Hfin) as [-> ->]. exists []. split; [constructor|reflexivity].
    - destruct (cstep_CInv _ _ _ _ HI Hst) as [(HI' & E)|[(x & p0' & -> & HI' & E)|(x & p1' & -> & HI' & E)]];
        destruct (IH _ _ HI' Hfin) as (l & Hm & El); rewrite E in El.
      + exists l. auto.
      + exists (x :: l). split; [now constructor|exact El].
      + exists (x :: l). split; [now constructor|exact El].
  Qed.

  (* two threads, each a sequence of critical sections (admission or head change), both well locked: the final
     shared state is that of the sequential model on SOME interleaving of the two section lists *)
  Theorem locked_threads_linearise s f0 f1 l0 l1 c :
    csteps (s, None, (f0, prog_of l0), (f1, prog_of l1)) c -> finished c ->
    exists l, merge l0 l1 l /\ shared c = run_secs s l.
  Proof.
    intros H Hfin. apply (CInv_linearise _ _ H l0 l1); [|exact Hfin].
    cbn [CInv]. split; reflexivity.
  Qed.

  (* one admission against one head change *)
  Theorem locked_interleavings_serialise s t ok blocks head v c :
    csteps (s, None, (false, prog_admit_locked t ok), (false, prog_set blocks head v)) c -> finished c ->
    shared c = set_state (fst (handle_tx s t ok)) blocks head v \/
    shared c = fst (handle_tx (set_state s blocks head v) t ok).
  Proof.
    intros H Hfin.
    destruct (locked_threads_linearise s false false [CAdmit t ok] [CSet blocks head v] c) as (l & Hm & E).
    - exact H.
    - exact Hfin.
    - apply merge_one_one in Hm as [-> | ->]; cbn [run_secs apply_sec] in E; auto.
  Qed.

  (* one step of a schedule: thread c (cstep_t0 or cstep_t1) takes its next action *)
  Ltac tick c := eapply cs_step; [apply c; constructor|].

  (* both orders do occur *)
  Theorem locked_both_orders_reachable s t ok blocks head v :
    (exists c, csteps (s, None, (false, prog_admit_locked t ok), (false, prog_set blocks head v)) c /\ finished c /\
               shared c = set_state (fst (handle_tx s t ok)) blocks head v) /\
    (exists c, csteps (s, None, (false, prog_admit_locked t ok), (false, prog_set blocks head v)) c /\ finished c /\
               shared c = fst (handle_tx (set_state s blocks head v) t ok)).
  Proof.
    split.
    - eexists. split; [do 4 tick cstep_t0; do 3 tick cstep_t1; apply cs_refl|].
      split; [split; reflexivity|]. cbn [shared]. now rewrite commit_vflag.
    - eexists. split; [do 3 tick cstep_t1; do 4 tick cstep_t0; apply cs_refl|].
      split; [split; reflexivity|]. cbn [shared]. now rewrite commit_vflag.
  Qed.

  (* with the validation hoisted out of the critical section, the verdict taken on s can be committed after the
     other thread has changed the head *)
  Lemma unlocked_stale_commit s t ok blocks head v :
    csteps (s, None, (false, prog_admit_unlocked t ok), (false, prog_set blocks head v))
           (commit (set_state s blocks head v) (vflag s t ok) t, None, (vflag s t ok, []), (false, [])).
  Proof. tick cstep_t0. do 3 tick cstep_t1. do 3 tick cstep_t0. apply cs_refl. Qed.

  Hypothesis conflict_sym : forall a b, tx_conflict a b = tx_conflict b a.

  Lemma apply_sec_pool_inv x s : PoolInv s -> PoolInv (apply_sec x s).
  Proof.
    intros HP. destruct x as [t ok|b h v]; cbn [apply_sec].
    - destruct (handle_tx s t ok) as [s' o] eqn:E. eapply handle_tx_pool_inv; eassumption.
    - eapply PoolInv_cleanup; [exact HP|reflexivity].
  Qed.

  Lemma run_secs_pool_inv l : forall s, PoolInv s -> PoolInv (run_secs s l).
  Proof. induction l as [|x l IH]; intros s HP; cbn [run_secs]; [assumption|]. apply IH. now apply apply_sec_pool_inv. Qed.

  Corollary locked_threads_preserve_PoolInv s f0 f1 l0 l1 c :
    PoolInv s -> csteps (s, None, (f0, prog_of l0), (f1, prog_of l1)) c -> finished c -> PoolInv (shared c).
  Proof.
    intros HP H Hfin. destruct (locked_threads_linearise _ _ _ _ _ _ H Hfin) as (l & _ & ->).
    now apply run_secs_pool_inv.
  Qed.

  Corollary locked_interleavings_preserve_PoolInv s t ok blocks head v c :
    PoolInv s ->
    csteps (s, None, (false, prog_admit_locked t ok), (false, prog_set blocks head v)) c -> finished c ->
    PoolInv (shared c).
  Proof. exact (locked_threads_preserve_PoolInv s false false [CAdmit t ok] [CSet blocks head v] c). Qed.
End Concurrency.

(* Validation hoisted out of the critical section.  Tx 2 is valid at head 0 and not at head 1 (ex_valid);
   thread 0 validates it against head 0, thread 1 installs head 1 (the pool, empty, is filtered), thread 0 then
   takes the lock and commits the stale verdict: tx 2 sits in the pool of a state whose head rejects it. *)

Theorem unlocked_admission_refuted :
  exists (tx_valid_at tx_conflict : N -> N -> bool),
    (forall a b, tx_conflict a b = tx_conflict b a) /\
    exists s t ok blocks head v c,
      PoolInv tx_valid_at tx_conflict s /\
      csteps tx_valid_at tx_conflict
             (s, None, (false, prog_admit_unlocked t ok), (false, prog_set blocks head v)) c /\
      finished c /\
      ~ PoolInv tx_valid_at tx_conflict (shared c).
Proof.
  exists (fun h t => N.even (h + t)), (fun _ _ => false). split; [reflexivity|].
  exists (mkNS [mkAB 0 0 0] 0 [mkAB 0 0 0] 0 [] [] [0]), 2, true, [mkAB 0 0 0; mkAB 1 0 1], 1, true.
  eexists. split; [|split; [|split]].
  - repeat split; constructor.
  - apply unlocked_stale_commit.
  - split; reflexivity.
  - vm_compute. intros (H & _). inversion H as [|x l Hx Hl]. discriminate Hx.
Qed.

(* the same schedule with the locked program is impossible: the final state there is one of the two sequential
   results, and both satisfy PoolInv (instance of the corollary at the counterexample's data) *)
Example locked_admission_same_data_ok c :
  csteps (fun h t => N.even (h + t)) (fun _ _ => false)
         (mkNS [mkAB 0 0 0] 0 [mkAB 0 0 0] 0 [] [] [0], None, (false, prog_admit_locked 2 true),
          (false, prog_set [mkAB 0 0 0; mkAB 1 0 1] 1 true)) c ->
  finished c -> PoolInv (fun h t => N.even (h + t)) (fun _ _ => false) (shared c).
Proof.
  intros H Hfin. eapply locked_interleavings_preserve_PoolInv; [reflexivity| |exact H|exact Hfin].
  repeat split; constructor.
Qed.

Print Assumptions locked_interleavings_serialise.
Print Assumptions locked_both_orders_reachable.
Print Assumptions locked_interleavings_preserve_PoolInv.
Print Assumptions locked_threads_linearise.
Print Assumptions locked_threads_preserve_PoolInv.
Print Assumptions unlocked_admission_refuted.
