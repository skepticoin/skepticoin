(* CoinState.add_block (model/Validate.v).
   What each stage of the validation checks: for a single transaction, what the verdict Ok implies; for a block, an
   equivalence between Ok and the facts checked.  The acceptance theorems of C01 / C02 / C05 / C12 and the position
   theorem of C18 read these off, in either direction.
   Then C02: an accepted block raises the unspent total by at most the subsidy; the supply bound. *)
From stdpp Require Import gmap.
From Coq Require Import NArith ZArith Lia.
From SkV Require Import Bytes Codec Ledger ChainState Pow Validate ChainDefs BytesProofs ReplayProofs.
Open Scope N_scope.

(* the error monad: when a computation returns Ok *)
Lemma bind_ok {A B} (r : res A) (f : A -> res B) (y : B) :
  bind r f = Ok y <-> exists a, r = Ok a /\ f a = Ok y.
Proof.
  split.
  - destruct r as [a|k]; cbn; [eauto|discriminate].
  - by intros (a & -> & Hf).
Qed.

Lemma bind_unit_ok {B} (r : res unit) (c : res B) (y : B) : (do _ <- r; c) = Ok y <-> r = Ok tt /\ c = Ok y.
Proof.
  split.
  - destruct r as [[]|k]; cbn; [done|discriminate].
  - by intros [-> Hc].
Qed.

Lemma check_ok (c : bool) (k : ekind) (x : unit) : check c k = Ok x <-> c = true.
Proof. destruct c, x; cbn; split; (done || discriminate). Qed.

Lemma of_opt_ok {A} (o : option A) (a : A) : of_opt o = Ok a <-> o = Some a.
Proof. destruct o; cbn; split; intros H; (by inversion H) || discriminate. Qed.

Lemma forM_ok {A} (f : A -> res unit) (l : list A) :
  forM f l = Ok tt <-> Forall (fun x => f x = Ok tt) l.
Proof.
  induction l as [|x r IH]; cbn [forM]; [by split|]. by rewrite bind_unit_ok, Forall_cons, IH.
Qed.

Lemma evidence_eqb_eq (a b : evidence) : evidence_eqb a b = true <-> a = b.
Proof.
  destruct a, b; unfold evidence_eqb; cbn. rewrite !andb_true_iff, !bytes_eqb_eq.
  split; [by intros [[-> ->] ->] | by intros [= -> -> ->]].
Qed.

Lemma evidence_eqb_refl (e : evidence) : evidence_eqb e e = true.
Proof. by apply evidence_eqb_eq. Qed.

(* nodup_keys and nodup_bytes are one scan at two element types *)
Section NoDupScan.
  Context {A : Type} `{EqDecision A}.
  Fixpoint nodup_scan (seen l : list A) : bool :=
    match l with [] => true | k :: r => if bool_decide (k ∈ seen) then false else nodup_scan (k :: seen) r end.

  Lemma nodup_scan_spec (l seen : list A) :
    nodup_scan seen l = true <-> NoDup l /\ forall k, k ∈ l -> k ∉ seen.
  Proof.
    revert seen. induction l as [|k r IH]; intros seen; cbn [nodup_scan].
    - split; [intros _; split; [constructor|]|done]. intros k Hk. by apply elem_of_nil in Hk.
    - case_bool_decide as Hin.
      + split; [discriminate|]. intros [_ Hall]. exfalso. apply (Hall k); [left|done].
      + rewrite IH, NoDup_cons. split.
        * intros [Hnd Hall]. split; [split; [|done]|].
          -- intros Hkr. apply (Hall k Hkr). left.
          -- intros x [->|Hx]%elem_of_cons; [done|]. intros Hs. apply (Hall x Hx). by right.
        * intros [[Hkr Hnd] Hall]. split; [done|]. intros x Hx [->|Hs]%elem_of_cons; [done|].
          apply (Hall x); [by right|done].
  Qed.

  Lemma nodup_scan_nil (l : list A) : nodup_scan [] l = true <-> NoDup l.
  Proof.
    rewrite nodup_scan_spec. split; [by intros []|]. intros H; split; [done|]. intros k _ Hk.
    by apply elem_of_nil in Hk.
  Qed.
End NoDupScan.

Lemma nodup_keys_nil (l : list refkey) : nodup_keys [] l = true <-> NoDup l.
Proof. exact (nodup_scan_nil l). Qed.

Lemma nodup_bytes_nil (l : list bytes) : nodup_bytes [] l = true <-> NoDup l.
Proof. exact (nodup_scan_nil l). Qed.

Section Stages.
  Variable sha : bytes -> bytes.
  Variable scrypt : bytes -> bytes.
  Variable blake : bytes -> bytes.
  Variable verify : bytes -> bytes -> bytes -> N.
  Variable P : cparams.

  Lemma sashimi_range_ok v x : sashimi_range P v = Ok x <-> 0 < v <= p_max_sashimi P.
  Proof.
    unfold sashimi_range. rewrite check_ok, andb_true_iff, N.ltb_lt, N.leb_le. done.
  Qed.

  Lemma check_output_values_ok outs acc tot :
    check_output_values P outs acc = Ok tot ->
    tot = acc + sum_outputs outs /\ Forall (fun o => 0 < out_value o <= p_max_sashimi P) outs.
  Proof.
    revert acc. induction outs as [|o r IH]; intros acc; cbn [check_output_values sum_outputs fold_right].
    - intros [= <-]. split; [lia|constructor].
    - rewrite bind_ok. intros (x & Hr%sashimi_range_ok & Hrest). apply IH in Hrest as [-> Hall].
      split; [|by constructor]. fold (sum_outputs r). lia.
  Qed.

  Lemma v_sig_for_spend_ok i o t x :
    v_sig_for_spend verify i o t = Ok x ->
    exists sg, in_sig i = SigSecp sg /\ verify (out_pk o) sg (enc_tx (signable t)) = 1.
  Proof.
    unfold v_sig_for_spend. destruct (in_sig i) as [| |sg]; try discriminate.
    destruct (verify (out_pk o) sg (enc_tx (signable t)) =? 1) eqn:E1.
    - intros _. exists sg. split; [done|]. by apply N.eqb_eq.
    - destruct (_ =? 0); discriminate.
  Qed.

  Lemma v_inputs_in_state_ok u t ins acc tot :
    v_inputs_in_state verify u t ins acc = Ok tot ->
    Forall (fun i => exists o sg, u !! ref_key (in_ref i) = Some o /\ in_sig i = SigSecp sg /\
                                  verify (out_pk o) sg (enc_tx (signable t)) = 1) ins /\
    exists v, inputs_value u ins = Some v /\ tot = acc + v.
  Proof.
    revert acc. induction ins as [|i r IH]; intros acc; cbn [v_inputs_in_state inputs_value].
    - intros [= <-]. split; [constructor|]. exists 0. split; [done|lia].
    - destruct (u !! ref_key (in_ref i)) as [o|] eqn:Hu; [|discriminate].
      rewrite bind_ok. intros (x & (sg & Hsg & Hv)%v_sig_for_spend_ok & Hrest).
      apply IH in Hrest as (Hall & v & Hval & ->). split.
      + constructor; [|done]. exists o, sg. done.
      + rewrite Hval. exists (out_value o + v). split; [done|lia].
  Qed.

  Lemma v_noncb_by_itself_ok t :
    v_noncb_by_itself P t = Ok tt ->
    tx_inputs t <> [] /\
    Forall (fun o => 0 < out_value o <= p_max_sashimi P) (tx_outputs t) /\
    0 < sum_outputs (tx_outputs t) <= p_max_sashimi P /\
    NoDup (tx_refs t) /\
    Forall (fun i => thin_air (in_ref i) = false /\ is_real_sig (in_sig i) = true) (tx_inputs t).
  Proof.
    unfold v_noncb_by_itself. intros [Hne%check_ok H]%bind_unit_ok.
    apply bind_unit_ok in H as [_ H]. apply bind_unit_ok in H as [_ H].
    apply bind_ok in H as (tot & (-> & Hvals)%check_output_values_ok & H).
    apply bind_unit_ok in H as [Hsum%sashimi_range_ok H].
    apply bind_unit_ok in H as [Hnd%check_ok%nodup_keys_nil Hins%forM_ok].
    split; [|split; [done|split; [by rewrite N.add_0_l in Hsum|split; [done|]]]].
    - intros E. by rewrite E in Hne.
    - eapply Forall_impl; [exact Hins|]. cbn beta.
      by intros i [Hair%check_ok%negb_true_iff Hsig%check_ok]%bind_unit_ok.
  Qed.

  Lemma v_noncb_in_state_ok u t :
    v_noncb_in_state verify u t = Ok tt ->
    Forall (fun i => exists o sg, u !! ref_key (in_ref i) = Some o /\ in_sig i = SigSecp sg /\
                                  verify (out_pk o) sg (enc_tx (signable t)) = 1) (tx_inputs t) /\
    exists vin, inputs_value u (tx_inputs t) = Some vin /\ sum_outputs (tx_outputs t) <= vin.
  Proof.
    unfold v_noncb_in_state. rewrite bind_ok.
    intros (tot & (Hall & v & Hv & ->)%v_inputs_in_state_ok & Hc%check_ok%N.leb_le).
    split; [done|]. exists v. split; [done|lia].
  Qed.

  Lemma add_block_ok s b now s' :
    add_block sha scrypt blake verify P s b now = Ok s' <->
    v_block_by_itself sha P b now = Ok tt /\ v_block_in_state sha scrypt blake verify P b s = Ok tt /\
    add_nv sha s b = Some s'.
  Proof. unfold add_block. by rewrite !bind_unit_ok, of_opt_ok. Qed.

  Lemma v_header_by_itself_ok h now :
    v_header_by_itself sha P h now = Ok tt <->
    bytes_ltb (header_id sha h) (s_target (h_summary h)) = true /\ s_time (h_summary h) <= now + p_max_future P.
  Proof. unfold v_header_by_itself. by rewrite bind_unit_ok, !check_ok, N.leb_le. Qed.

  Lemma v_block_by_itself_ok b now cb rest :
    b_txs b = cb :: rest ->
    v_block_by_itself sha P b now = Ok tt <->
    bytes_ltb (block_id sha b) (b_target b) = true /\ b_time b <= now + p_max_future P /\
    N.of_nat (length (enc_block b)) <= p_max_block P /\
    v_cb_by_itself P cb = Ok tt /\ cb_height cb = Some (b_height b) /\
    Forall (fun t => v_noncb_by_itself P t = Ok tt) rest /\
    NoDup (map (tx_id sha) rest) /\ NoDup (concat (map tx_refs rest)) /\
    merkle_root_of sha (cb :: rest) = Some (s_merkle (h_summary (b_header b))).
  Proof.
    intros Htxs. unfold v_block_by_itself. rewrite Htxs, bind_unit_ok, v_header_by_itself_ok. split.
    - intros [[Hpow Hfut] H].
      apply bind_unit_ok in H as [Hsize%check_ok%N.leb_le H]. apply bind_unit_ok in H as [Hcb H].
      apply bind_unit_ok in H as [Hh%check_ok H]. apply bind_unit_ok in H as [Hself%forM_ok H].
      apply bind_unit_ok in H as [Hids%check_ok%nodup_bytes_nil H].
      apply bind_unit_ok in H as [Hrefs%check_ok%nodup_keys_nil H].
      destruct (cb_height cb) as [h|]; [apply N.eqb_eq in Hh as ->|done].
      destruct (merkle_root_of _ _) as [r|]; [apply check_ok, bytes_eqb_eq in H as <-|done].
      repeat split; assumption.
    - intros (Hpow & Hfut & Hsize%N.leb_le & Hcb & Hh & Hself%forM_ok & Hids%nodup_bytes_nil &
              Hrefs%nodup_keys_nil & Hmr). split; [done|].
      rewrite Hsize, Hcb, Hh, N.eqb_refl, Hself, Hids, Hrefs, Hmr. cbn [bind check].
      by rewrite bytes_eqb_refl.
  Qed.

  Lemma v_block_by_itself_nonempty b now x : v_block_by_itself sha P b now = Ok x -> b_txs b <> [].
  Proof. unfold v_block_by_itself. intros [_ H]%bind_unit_ok E. rewrite E in H. discriminate. Qed.

  Lemma v_summary_in_state_ok sm s :
    v_summary_in_state sha P sm s = Ok tt <->
    exists prev, cs_blocks s !! s_prev sm = Some prev /\ b_time prev < s_time sm /\
                 calc_target sha P s (b_height prev + 1) (s_time sm) prev = Some (s_target sm).
  Proof.
    unfold v_summary_in_state. split.
    - destruct (cs_blocks s !! s_prev sm) as [prev|]; [|done].
      intros [Ht%check_ok%N.ltb_lt H]%bind_unit_ok.
      apply bind_ok in H as (tg & Htg%of_opt_ok & ->%check_ok%bytes_eqb_eq). by exists prev.
    - intros (prev & -> & Ht%N.ltb_lt & ->). cbn. by rewrite Ht, bytes_eqb_refl.
  Qed.

  Lemma v_cb_in_state_ok cb b s :
    v_cb_in_state P cb b s = Ok tt <->
    exists prev u fees,
      cs_blocks s !! b_prev b = Some prev /\ b_height b = b_height prev + 1 /\
      cs_utxo s !! b_prev b = Some u /\ block_fees u (tl (b_txs b)) = Some fees /\
      (Z.of_N (sum_outputs (tx_outputs cb)) <= fees + Z.of_N (get_block_subsidy P (b_height b)))%Z.
  Proof.
    unfold v_cb_in_state. split.
    - intros (prev & Hp%of_opt_ok & H)%bind_ok. apply bind_unit_ok in H as [Hh%check_ok%N.eqb_eq H].
      apply bind_ok in H as (u & Hu%of_opt_ok & (fees & Hf%of_opt_ok & Hle%check_ok%Z.leb_le)%bind_ok).
      by exists prev, u, fees.
    - intros (prev & u & fees & -> & Hh%N.eqb_eq & -> & Hf & Hle%Z.leb_le). cbn. rewrite Hh, Hf. cbn. by rewrite Hle.
  Qed.

  Lemma v_block_in_state_above b s :
    FV P b ->
    v_block_in_state sha scrypt blake verify P b s = Ok tt <->
    exists prev cb rest u fees,
      cs_blocks s !! b_prev b = Some prev /\ b_txs b = cb :: rest /\ cs_utxo s !! b_prev b = Some u /\
      b_time prev < b_time b /\ calc_target sha P s (b_height prev + 1) (b_time b) prev = Some (b_target b) /\
      construct_evidence sha scrypt blake P s (h_summary (b_header b)) (b_height b) (b_txs b)
        = Some (h_evidence (b_header b)) /\
      b_height b = b_height prev + 1 /\ block_fees u rest = Some fees /\
      (Z.of_N (sum_outputs (tx_outputs cb)) <= fees + Z.of_N (get_block_subsidy P (b_height b)))%Z /\
      Forall (fun t => v_noncb_in_state verify u t = Ok tt) rest.
  Proof.
    intros Hfv%Z.leb_gt. unfold v_block_in_state. rewrite Hfv. split.
    - intros [(prev & Hprev & Htime & Htg)%v_summary_in_state_ok H]%bind_unit_ok.
      apply bind_ok in H as (ev & Hev%of_opt_ok & H).
      apply bind_unit_ok in H as [<-%check_ok%evidence_eqb_eq H].
      destruct (b_txs b) as [|cb rest] eqn:Htxs; [done|].
      apply bind_unit_ok in H as [Hcb H].
      apply bind_ok in H as (u & Hu%of_opt_ok & Hrest%forM_ok).
      apply v_cb_in_state_ok in Hcb as (prev' & u' & fees & Hprev' & Hh & Hu' & Hfees & Hle).
      unfold b_prev in Hprev'. rewrite Htxs in Hfees. exists prev, cb, rest, u, fees. by simplify_eq.
    - intros (prev & cb & rest & u & fees & Hprev & Htxs & Hu & Htime & Htg & Hev & Hh & Hfees & Hle & Hrest%forM_ok).
      assert (v_summary_in_state sha P (h_summary (b_header b)) s = Ok tt) as ->
        by (apply v_summary_in_state_ok; by exists prev).
      assert (v_cb_in_state P cb b s = Ok tt) as Hcb
        by (apply v_cb_in_state_ok; exists prev, u, fees; by rewrite Htxs).
      rewrite Hev, Htxs in *. cbn. by rewrite evidence_eqb_refl, Hcb, Hu.
  Qed.

  (* at or below the horizon: the position check, then the table comparison *)
  Lemma v_block_in_state_below b s :
    (Z.of_N (b_height b) <= p_hz P)%Z ->
    v_block_in_state sha scrypt blake verify P b s =
      (do _ <- match cs_blocks s !! b_prev b with
               | Some prev => check (b_height b =? b_height prev + 1) EValidation
               | None => check (b_height b =? 0) EValidation
               end;
       match known_hash (p_known P) (b_height b) with
       | Some kh => check (bytes_eqb (block_id sha b) kh) EValidation
       | None => Ok tt
       end).
  Proof. intros Hle%Z.leb_le. unfold v_block_in_state. by rewrite Hle. Qed.

  (* the in-state verdict, on either side of the horizon: an accepted block's height is its parent's plus one *)
  Theorem accepted_height_is_position b s prev :
    v_block_in_state sha scrypt blake verify P b s = Ok tt ->
    cs_blocks s !! b_prev b = Some prev -> b_height b = b_height prev + 1.
  Proof.
    intros Hok Hprev. destruct (Z.le_gt_cases (Z.of_N (b_height b)) (p_hz P)) as [Hle|Hfv].
    - rewrite v_block_in_state_below, Hprev in Hok by done.
      by apply bind_unit_ok in Hok as [Hh%check_ok%N.eqb_eq _].
    - apply v_block_in_state_above in Hok as (prev' & ? & ? & ? & ? & Hprev' & _ & _ & _ & _ & _ & Hh & _); [|done].
      by simplify_eq.
  Qed.

  (* C01 *)
  Theorem accept_sound_spend s b now s' :
    add_block sha scrypt blake verify P s b now = Ok s' -> FV P b ->
    exists cb rest u, b_txs b = cb :: rest /\ cs_utxo s !! b_prev b = Some u /\
      Forall (fun t => Forall (fun i => exists o sg, u !! ref_key (in_ref i) = Some o /\ in_sig i = SigSecp sg /\
                                    verify (out_pk o) sg (enc_tx (signable t)) = 1) (tx_inputs t)) rest /\
      NoDup (concat (map tx_refs rest)) /\
      Forall (fun t => tx_inputs t <> [] /\ Forall (fun i => thin_air (in_ref i) = false) (tx_inputs t)) rest.
  Proof.
    intros (Hself & Hstate & _)%add_block_ok Hfv.
    apply v_block_in_state_above in Hstate
      as (prev & cb & rest & u & fees & _ & Htxs & Hu & _ & _ & _ & _ & _ & _ & Hst); [|done].
    eapply v_block_by_itself_ok in Hself as (_ & _ & _ & _ & _ & Hself & _ & Hnd & _); [|done].
    exists cb, rest, u. split; [done|split; [done|split; [|split; [done|]]]].
    - eapply Forall_impl; [exact Hst|]. cbn beta. intros t Ht. by apply v_noncb_in_state_ok in Ht as [? _].
    - eapply Forall_impl; [exact Hself|]. cbn beta. intros t Ht.
      apply v_noncb_by_itself_ok in Ht as (Hne & _ & _ & _ & Hta). split; [done|].
      eapply Forall_impl; [exact Hta|]. cbn beta. by intros i [? _].
  Qed.

  (* C02 *)
  Theorem accept_sound_value s b now s' :
    add_block sha scrypt blake verify P s b now = Ok s' -> FV P b ->
    exists cb rest u fees, b_txs b = cb :: rest /\ cs_utxo s !! b_prev b = Some u /\
      block_fees u rest = Some fees /\
      (Z.of_N (sum_outputs (tx_outputs cb)) <= fees + Z.of_N (get_block_subsidy P (b_height b)))%Z /\
      Forall (fun t => Forall (fun o => 0 < out_value o <= p_max_sashimi P) (tx_outputs t) /\
                       0 < sum_outputs (tx_outputs t) <= p_max_sashimi P /\
                       exists vin, inputs_value u (tx_inputs t) = Some vin /\ sum_outputs (tx_outputs t) <= vin) rest /\
      (exists prev, cs_blocks s !! b_prev b = Some prev /\ b_height b = b_height prev + 1).
  Proof.
    intros (Hself & Hstate & _)%add_block_ok Hfv.
    apply v_block_in_state_above in Hstate
      as (prev & cb & rest & u & fees & Hprev & Htxs & Hu & _ & _ & _ & Hh & Hfees & Hle & Hst); [|done].
    eapply v_block_by_itself_ok in Hself as (_ & _ & _ & _ & _ & Hself & _); [|done].
    exists cb, rest, u, fees. split; [done|split; [done|split; [done|split; [done|split; [|by exists prev]]]]].
    apply Forall_forall. intros t Ht.
    rewrite Forall_forall in Hself, Hst.
    destruct (v_noncb_by_itself_ok _ (Hself t Ht)) as (_ & Hvals & Hsum & _ & _).
    destruct (v_noncb_in_state_ok _ _ (Hst t Ht)) as (_ & Hvin). done.
  Qed.

  (* C05 *)
  Theorem accept_sound_header s b now s' :
    add_block sha scrypt blake verify P s b now = Ok s' -> FV P b ->
    bytes_ltb (block_id sha b) (b_target b) = true /\
    exists prev cb rest ev,
      cs_blocks s !! b_prev b = Some prev /\ b_txs b = cb :: rest /\
      calc_target sha P s (b_height prev + 1) (b_time b) prev = Some (b_target b) /\
      b_height b = b_height prev + 1 /\ cb_height cb = Some (b_height b) /\
      b_time prev < b_time b /\ b_time b <= now + p_max_future P /\
      construct_evidence sha scrypt blake P s (h_summary (b_header b)) (b_height b) (b_txs b) = Some ev /\
      h_evidence (b_header b) = ev.
  Proof.
    intros (Hself & Hstate & _)%add_block_ok Hfv.
    apply v_block_in_state_above in Hstate
      as (prev & cb & rest & u & fees & Hprev & Htxs & _ & Htime & Htg & Hev & Hh & _); [|done].
    eapply v_block_by_itself_ok in Hself as (Hpow & Hfut & _ & _ & Hcb & _); [|done].
    split; [done|]. by exists prev, cb, rest, (h_evidence (b_header b)).
  Qed.
End Stages.

(* Ledger.utxo is a definitional abbreviation of [gmap refkey output]; std++'s rewriting lemmas are keyed on the
   syntactic shape [gmap K A], so the statements below are written with the abbreviation unfolded (they are
   convertible to, and used as, statements about [Ledger.utxo]) and [nu] unfolds it wherever evaluating a model
   function reintroduces it. *)
Local Notation utxo := (gmap refkey output).
Local Ltac nu := unfold Ledger.utxo in *.

Lemma total_empty : utxo_total (∅ : utxo) = 0.
Proof. unfold utxo_total. apply map_fold_empty. Qed.

Lemma total_insert_fresh (u : utxo) (k : refkey) (o : output) :
  u !! k = None -> utxo_total (<[k:=o]> u) = utxo_total u + out_value o.
Proof.
  intros Hk. unfold utxo_total.
  apply (map_fold_insert_L (M:=gmap refkey) (fun (_ : refkey) (x : output) (acc : N) => acc + out_value x) 0 k o u);
    [|done].
  intros. lia.
Qed.

Lemma total_delete (u : utxo) (k : refkey) (o : output) :
  u !! k = Some o -> utxo_total (delete k u) + out_value o = utxo_total u.
Proof.
  intros Hk. rewrite <- (total_insert_fresh (delete k u) k o) by apply lookup_delete. by rewrite insert_delete.
Qed.

Lemma total_insert_le (u : utxo) (k : refkey) (o : output) : utxo_total (<[k:=o]> u) <= utxo_total u + out_value o.
Proof.
  destruct (u !! k) as [o'|] eqn:Hk.
  - rewrite <- insert_delete_insert, total_insert_fresh by apply lookup_delete.
    pose proof (total_delete u k o' Hk). lia.
  - rewrite total_insert_fresh by done. lia.
Qed.

Lemma inputs_value_mono (u1 u2 : utxo) (ins : list input) (v : N) :
  u1 ⊆ u2 -> inputs_value u1 ins = Some v -> inputs_value u2 ins = Some v.
Proof.
  intros Hsub. revert v. induction ins as [|i r IH]; intros v; cbn [inputs_value]; nu; [done|].
  destruct (u1 !! ref_key (in_ref i)) as [o|] eqn:H1; [|discriminate].
  destruct (inputs_value u1 r) as [v'|]; [|discriminate].
  rewrite (lookup_weaken _ _ _ _ H1 Hsub), (IH v' eq_refl). done.
Qed.

Lemma spend_total (ins : list input) (u u' : utxo) :
  spend_inputs ins u = Some u' -> exists v, inputs_value u ins = Some v /\ utxo_total u' + v = utxo_total u.
Proof.
  revert u. induction ins as [|i r IH]; intros u; cbn [spend_inputs inputs_value]; nu.
  - intros [= <-]. exists 0. split; [done|lia].
  - destruct (u !! ref_key (in_ref i)) as [o|] eqn:Hk; [|discriminate].
    intros (v & Hv & Htot)%IH.
    rewrite (inputs_value_mono _ u _ _ (delete_subseteq _ _) Hv).
    exists (out_value o + v). split; [done|].
    pose proof (total_delete u _ o Hk). lia.
Qed.

(* the part of the unspent set outside a key list *)
Definition outside (K : list refkey) (u : utxo) : utxo := filter (fun kv => kv.1 ∉ K) u.

Lemma outside_nil (u : utxo) : outside [] u = u.
Proof. apply map_filter_id. intros k o _. apply not_elem_of_nil. Qed.

Lemma outside_empty (K : list refkey) : outside K ∅ = ∅.
Proof. apply map_filter_empty. Qed.

Lemma outside_cons (K : list refkey) (k : refkey) (u : utxo) : outside (k :: K) u = delete k (outside K u).
Proof.
  unfold outside. rewrite <- map_filter_delete. apply map_filter_strong_ext_1. intros i x.
  rewrite lookup_delete_Some, not_elem_of_cons. cbn. split; [intros [[Hne ?] ?] | intros (? & Hne & ?)]; auto.
Qed.

Lemma outside_insert_le (K : list refkey) (k : refkey) (o : output) (u : utxo) :
  utxo_total (outside K (<[k:=o]> u)) <= utxo_total (outside K u) + out_value o.
Proof.
  unfold outside. destruct (decide (k ∈ K)) as [Hin|Hout].
  - rewrite map_filter_insert_not by (intros ? Hn; exact (Hn Hin)). apply N.le_add_r.
  - rewrite map_filter_insert_True by exact Hout. apply total_insert_le.
Qed.

Lemma outside_add_outputs_le (K : list refkey) (id : bytes) (i : N) (outs : list output) (u : utxo) :
  utxo_total (outside K (add_outputs id i outs u)) <= utxo_total (outside K u) + sum_outputs outs.
Proof.
  revert i u. induction outs as [|o r IH]; intros i u; cbn [add_outputs sum_outputs fold_right]; nu.
  - lia.
  - fold (sum_outputs r). etrans; [apply IH|]. etrans; [apply N.add_le_mono_r, outside_insert_le|]. lia.
Qed.

Lemma add_outputs_total (id : bytes) (i : N) (outs : list output) (u : utxo) :
  utxo_total (add_outputs id i outs u) <= utxo_total u + sum_outputs outs.
Proof. pose proof (outside_add_outputs_le [] id i outs u) as H. by rewrite !outside_nil in H. Qed.

(* spend_inputs removes exactly the referenced keys *)
Lemma outside_spend (K : list refkey) (ins : list input) (u u' : utxo) :
  spend_inputs ins u = Some u' ->
  outside K u' = outside (map (fun i => ref_key (in_ref i)) ins ++ K) u.
Proof.
  revert u. induction ins as [|i r IH]; intros u; cbn [spend_inputs map app]; nu.
  - by intros [= <-].
  - destruct (u !! ref_key (in_ref i)); [|discriminate]. intros ->%IH.
    rewrite outside_cons. unfold outside. apply map_filter_delete.
Qed.

Lemma spend_lookup (ins : list input) (u u' : utxo) (k : refkey) :
  spend_inputs ins u = Some u' ->
  u' !! k = if decide (k ∈ map (fun i => ref_key (in_ref i)) ins) then None else u !! k.
Proof.
  intros Hsp%(outside_spend []). rewrite !outside_nil, app_nil_r in Hsp. rewrite Hsp.
  unfold outside. rewrite map_filter_lookup. destruct (u !! k) as [o|]; cbn; [|by case_decide].
  case_option_guard; case_decide; done.
Qed.

Lemma outside_le (K : list refkey) (u : utxo) : utxo_total (outside K u) <= utxo_total u.
Proof.
  induction K as [|k K IH]; [by rewrite outside_nil|]. rewrite outside_cons.
  destruct (outside K u !! k) as [o|] eqn:Hk.
  - pose proof (total_delete _ _ _ Hk). lia.
  - by rewrite delete_notin.
Qed.

(* distinct inputs that are all present: outside part + their value = everything *)
Lemma outside_inputs_total (ins : list input) (u : utxo) (v : N) :
  NoDup (map (fun i => ref_key (in_ref i)) ins) -> inputs_value u ins = Some v ->
  utxo_total (outside (map (fun i => ref_key (in_ref i)) ins) u) + v = utxo_total u.
Proof.
  revert v. induction ins as [|i r IH]; intros v; cbn [map inputs_value]; nu.
  - intros _ [= <-]. rewrite outside_nil. lia.
  - intros [Hnin Hnd]%NoDup_cons.
    destruct (u !! ref_key (in_ref i)) as [o|] eqn:Hk; [|discriminate].
    destruct (inputs_value u r) as [v'|]; [|discriminate]. intros [= <-].
    rewrite outside_cons. pose proof (IH v' Hnd eq_refl).
    pose proof (total_delete (outside _ u) _ o (map_filter_lookup_Some_2 _ _ _ _ Hk Hnin)). lia.
Qed.

Definition all_inputs (ts : list tx) : list input := concat (map tx_inputs ts).
Fixpoint outs_total (ts : list tx) : N :=
  match ts with [] => 0 | t :: r => sum_outputs (tx_outputs t) + outs_total r end.

Lemma tx_refs_all_inputs ts : concat (map tx_refs ts) = map (fun i => ref_key (in_ref i)) (all_inputs ts).
Proof.
  unfold all_inputs. induction ts as [|t r IH]; cbn [map concat]; [done|].
  rewrite map_app, IH. done.
Qed.

Lemma inputs_value_app (u : utxo) (a b : list input) :
  inputs_value u (a ++ b) =
  match inputs_value u a, inputs_value u b with Some x, Some y => Some (x + y) | _, _ => None end.
Proof.
  induction a as [|i r IH]; cbn [app inputs_value]; nu.
  - destruct (inputs_value u b); [f_equal|done].
  - destruct (u !! ref_key (in_ref i)); [|done]. rewrite IH.
    destruct (inputs_value u r), (inputs_value u b); try done. f_equal. lia.
Qed.

Lemma block_fees_split (u : utxo) (ts : list tx) (fees : Z) :
  block_fees u ts = Some fees ->
  exists vin, inputs_value u (all_inputs ts) = Some vin /\ fees = (Z.of_N vin - Z.of_N (outs_total ts))%Z.
Proof.
  revert fees. unfold all_inputs.
  induction ts as [|t r IH]; intros fees; cbn [block_fees map concat outs_total]; nu.
  - intros [= <-]. exists 0. done.
  - unfold tx_fee. destruct (inputs_value u (tx_inputs t)) as [v|] eqn:Hv; [|discriminate].
    destruct (block_fees u r) as [f|]; [|discriminate]. intros [= <-].
    destruct (IH f eq_refl) as (vin & Hvin & ->).
    rewrite inputs_value_app, Hv, Hvin. exists (v + vin). split; [done|lia].
Qed.

Section Value.
  Variable sha : bytes -> bytes.
  Variable scrypt : bytes -> bytes.
  Variable blake : bytes -> bytes.
  Variable verify : bytes -> bytes -> bytes -> N.
  Variable P : cparams.

  (* applying the non-reward transactions to ANY running set w: whatever w holds under keys that are still to be
     spent never reaches the result (it is either deleted, or overwritten and then deleted), and every
     transaction adds at most its outputs *)
  Lemma apply_txs_total (ts : list tx) (w w' : utxo) :
    uto_apply_txs sha w ts = Some w' ->
    utxo_total w' <= utxo_total (outside (concat (map tx_refs ts)) w) + outs_total ts.
  Proof.
    revert w. induction ts as [|t r IH]; intros w; cbn [uto_apply_txs map concat outs_total]; nu.
    - intros [= <-]. rewrite outside_nil. lia.
    - unfold uto_apply_tx; nu. destruct (spend_inputs (tx_inputs t) w) as [w1|] eqn:Hsp; [|discriminate].
      intros Hr%IH.
      pose proof (outside_add_outputs_le (concat (map tx_refs r)) (tx_id sha t) 0 (tx_outputs t) w1) as Hadd.
      rewrite (outside_spend _ _ _ _ Hsp) in Hadd. fold (tx_refs t) in Hadd. lia.
  Qed.

  Lemma apply_block_total (b : block) (cb : tx) (rest : list tx) (u0 u1 : utxo) :
    b_txs b = cb :: rest -> uto_apply_block sha u0 b = Some u1 ->
    utxo_total u1 <=
      utxo_total (outside (concat (map tx_refs rest)) u0) + sum_outputs (tx_outputs cb) + outs_total rest.
  Proof.
    unfold uto_apply_block. intros -> Happ%apply_txs_total. etrans; [exact Happ|].
    apply N.add_le_mono_r, outside_add_outputs_le.
  Qed.

  (* An accepted block adds itself and an unspent set u1 worth at most the parent's set u plus the subsidy.
     With K = all references spent by the non-reward transactions and u0 the set add_nv starts from,
       total u1 <= total (outside K u0) + outs(cb) + outs(rest) (apply_block_total)
                <= total (outside K u)  + outs(cb) + outs(rest) (u0 = u, or u0 = ∅ when the parent id is all-zero:
                                                                 add_nv then starts from the empty set although the
                                                                 validation read u; the bound still holds)
                 = total u - vin + outs(cb) + outs(rest)        (outside_inputs_total: K is duplicate-free and every
                                                                 reference is present in u - from validation)
                <= total u + subsidy                            (reward check, fees = vin - outs(rest)).
     No exactness of the running set is needed: an output inserted under a key that is still to be spent (or that
     overwrites an existing key) never increases the part of the set outside K by more than its value. *)
  Lemma block_step s b now s' :
    add_block sha scrypt blake verify P s b now = Ok s' -> FV P b ->
    exists prev u u1,
      cs_blocks s !! b_prev b = Some prev /\ b_height b = b_height prev + 1 /\ cs_utxo s !! b_prev b = Some u /\
      cs_blocks s' = <[block_id sha b := b]> (cs_blocks s) /\ cs_utxo s' = <[block_id sha b := u1]> (cs_utxo s) /\
      utxo_total u1 <= utxo_total u + get_block_subsidy P (b_height b).
  Proof.
    intros (Hself & Hstate & Hnv)%add_block_ok Hfv.
    apply v_block_in_state_above in Hstate
      as (prev & cb & rest & u & fees & Hprev & Htxs & Hu & _ & _ & _ & Hh & Hfees & Hle & _); [|done].
    eapply v_block_by_itself_ok in Hself as (_ & _ & _ & _ & _ & _ & _ & Hnd & _); [|done].
    destruct (add_nv_inv _ _ _ _ Hnv) as [Hblocks (u0 & u1 & Hu0 & Happ & Hutxo) _ _ _].
    exists prev, u, u1. do 5 (split; [done|]).
    apply (apply_block_total _ _ _ _ _ Htxs) in Happ.
    destruct (block_fees_split _ _ _ Hfees) as (vin & Hvin & ->).
    rewrite tx_refs_all_inputs in Hnd, Happ. pose proof (outside_inputs_total _ u vin Hnd Hvin) as Hsplit.
    destruct (is_zero32 (b_prev b)).
    - rewrite Hu0, outside_empty in Happ. nu. rewrite total_empty in Happ. lia.
    - rewrite Hu in Hu0. injection Hu0 as <-. lia.
  Qed.

  Fixpoint cum_nat (n : nat) : N :=
    match n with
    | O => get_block_subsidy P 0
    | S m => cum_nat m + get_block_subsidy P (N.of_nat (S m))
    end.
  (* sum of get_block_subsidy P k for k = 0..h *)
  Definition cum (h : N) : N := cum_nat (N.to_nat h).

  Lemma cum_0 : cum 0 = get_block_subsidy P 0.
  Proof. done. Qed.
  Lemma cum_succ h : cum (h + 1) = cum h + get_block_subsidy P (h + 1).
  Proof.
    unfold cum. replace (N.to_nat (h + 1)) with (S (N.to_nat h)) by lia. cbn [cum_nat].
    replace (N.of_nat (S (N.to_nat h))) with (h + 1) by lia. done.
  Qed.

  Definition SupplyInv (s : cstate) : Prop :=
    forall h b u, cs_blocks s !! h = Some b -> cs_utxo s !! h = Some u -> utxo_total u <= cum (b_height b).

  Lemma supply_inv_empty : SupplyInv cs_empty.
  Proof. intros h b u Hb. cbn in Hb. by rewrite lookup_empty in Hb. Qed.

  (* No well-formedness of the base state beyond SupplyInv itself is needed: the new block and its unspent set are
     stored under the same key (overriding whatever was there), and the parent's entry supplies the bound for
     height - 1.  Nor does the step ask that the block be new to the state, as validated_from does. *)
  Lemma supply_step s b now s' :
    SupplyInv s -> FV P b -> add_block sha scrypt blake verify P s b now = Ok s' -> SupplyInv s'.
  Proof.
    intros Hinv Hfv Hadd.
    destruct (block_step _ _ _ _ Hadd Hfv) as (prev & u & u1 & Hprev & Hh & Hu & Hblocks & Hutxo & Hle).
    intros h b' u' Hb' Hu'. rewrite Hblocks in Hb'. rewrite Hutxo in Hu'.
    apply lookup_insert_Some in Hb' as [[<- <-]|[Hne Hb']].
    - rewrite lookup_insert in Hu'. injection Hu' as <-.
      pose proof (Hinv _ _ _ Hprev Hu). rewrite Hh in Hle |- *. rewrite cum_succ. lia.
    - rewrite lookup_insert_ne in Hu' by done. exact (Hinv _ _ _ Hb' Hu').
  Qed.

  Theorem supply_bound s0 s :
    SupplyInv s0 -> validated_from sha scrypt blake verify P s0 s -> SupplyInv s.
  Proof.
    intros H0 Hv. induction Hv as [|s b now s' Hv IH Hfv _ Hadd]; [done|]. by eapply supply_step.
  Qed.
End Value.
