(* Proofs about model/Sync.v: the block locator (recent_heights) and the GetBlocks server side (scan, serve).
   The server's reply is described as a window of its active chain: firstn batch (skipn start main). *)
From Coq Require Import NArith PeanoNat List Bool Lia Sorted.
From SkV Require Import Sync ListFacts.
Import ListNotations.
Open Scope N_scope.

Lemma in_oldness o : In o oldness <-> o < 10 \/ exists k, 4 <= k < 64 /\ o = k * k.
Proof.
  unfold oldness. split.
  - intros H. apply in_app_or in H.
    destruct H as [H|H]; apply in_map_iff in H; destruct H as (n & <- & Hn); apply in_seq in Hn.
    + left. lia.
    + right. exists (N.of_nat n). split; [lia|reflexivity].
  - intros [Ho|(k & Hk & ->)]; apply in_or_app.
    + left. apply in_map_iff. exists (N.to_nat o). split; [apply N2Nat.id|apply in_seq; lia].
    + right. apply in_map_iff. exists (N.to_nat k). split; [rewrite N2Nat.id; reflexivity|apply in_seq; lia].
Qed.

Theorem recent_heights_le x h : In x (recent_heights h) -> x <= h.
Proof.
  unfold recent_heights. intros H. apply in_map_iff in H. destruct H as (o & <- & _). apply N.le_sub_l.
Qed.

Theorem recent_heights_exact x h :
  In x (recent_heights h) <->
  (exists k, k < 10 /\ k <= h /\ x = h - k) \/ (exists k, 4 <= k < 64 /\ k * k <= h /\ x = h - k * k).
Proof.
  unfold recent_heights. rewrite in_map_iff. split.
  - intros (o & <- & Hin). apply filter_In in Hin. destruct Hin as [Hin Hle]. apply N.leb_le in Hle.
    apply in_oldness in Hin. destruct Hin as [Ho|(k & Hk & ->)].
    + left. exists o. auto.
    + right. exists k. auto.
  - intros [(k & Hk & Hle & ->)|(k & Hk & Hle & ->)].
    + exists k. split; [reflexivity|]. apply filter_In. split; [|apply N.leb_le, Hle].
      apply in_oldness. left. exact Hk.
    + exists (k * k). split; [reflexivity|]. apply filter_In. split; [|apply N.leb_le, Hle].
      apply in_oldness. right. exists k. auto.
Qed.

(* the locator heights start with the head height itself *)
Lemma recent_heights_cons h : exists tl, recent_heights h = h :: tl.
Proof.
  assert (Ho : exists r, oldness = 0 :: r) by (eexists; reflexivity). destruct Ho as [r Hr].
  unfold recent_heights. rewrite Hr. cbn [filter]. rewrite (proj2 (N.leb_le 0 h) (N.le_0_l h)).
  cbn [map]. rewrite N.sub_0_r. eexists. reflexivity.
Qed.

Theorem recent_heights_head h : In h (recent_heights h).
Proof. destruct (recent_heights_cons h) as [tl ->]. left. reflexivity. Qed.

(* boolean check that each element is below the next *)
Fixpoint ascendingb (l : list N) : bool :=
  match l with
  | a :: (b :: _) as r => (a <? b) && ascendingb r
  | _ => true
  end.

Lemma ascendingb_sound l : ascendingb l = true -> Sorted N.lt l.
Proof.
  induction l as [|a [|b r] IH]; intros H; [constructor|repeat constructor|].
  apply andb_true_iff in H. destruct H as [Hab Hr].
  constructor; [exact (IH Hr)|]. constructor. apply N.ltb_lt, Hab.
Qed.

Lemma oldness_sorted : StronglySorted N.lt oldness.
Proof.
  apply Sorted_StronglySorted; [exact N.lt_trans|]. apply ascendingb_sound. vm_compute. reflexivity.
Qed.

Lemma oldness_length : length oldness = 70%nat.
Proof. reflexivity. Qed.

Lemma StronglySorted_map_sub h l :
  StronglySorted N.lt l -> Forall (fun o => o <= h) l ->
  StronglySorted (fun a b => b < a) (map (fun o => h - o) l).
Proof.
  induction 1 as [|a r Hr IH Ha]; intros Hle; cbn [map]; [constructor|].
  inversion Hle as [|? ? Hah Hrh]; subst. constructor; auto.
  apply Forall_forall. intros b Hb. apply in_map_iff in Hb. destruct Hb as (o & <- & Ho).
  rewrite Forall_forall in Ha, Hrh. specialize (Ha o Ho). specialize (Hrh o Ho). lia.
Qed.

Theorem recent_heights_sorted h : StronglySorted (fun a b => b < a) (recent_heights h).
Proof.
  unfold recent_heights. apply StronglySorted_map_sub.
  - apply StronglySorted_filter. exact oldness_sorted.
  - apply Forall_forall. intros o Ho. apply filter_In in Ho. destruct Ho as [_ Ho].
    apply N.leb_le; exact Ho.
Qed.

Corollary recent_heights_NoDup h : NoDup (recent_heights h).
Proof.
  generalize (recent_heights_sorted h). induction 1 as [|a r Hr IH Ha]; constructor; auto.
  intros Hin. rewrite Forall_forall in Ha. specialize (Ha a Hin). lia.
Qed.

Theorem recent_heights_length h : (length (recent_heights h) <= 70)%nat.
Proof.
  unfold recent_heights. rewrite map_length, <- oldness_length. apply filter_length_le.
Qed.

Theorem recent_heights_0 : recent_heights 0 = [0].
Proof. vm_compute. reflexivity. Qed.

(* when the chain is long enough nothing is dropped: the largest entry of oldness is 63 * 63 *)
Theorem recent_heights_length_full h : 3969 <= h -> length (recent_heights h) = 70%nat.
Proof.
  intros Hh. unfold recent_heights. rewrite map_length, filter_all; [exact oldness_length|].
  apply Forall_forall. intros o Ho. apply N.leb_le. apply in_oldness in Ho. destruct Ho as [Ho|(k & Hk & ->)]; nia.
Qed.

Section ServeProofs.
  Variable main : list N.
  Variable height_of : N -> option N.

  Notation head_height := (head_height main).
  Notation main_at := (main_at main).
  Notation scan := (scan main height_of).
  Notation range_ids := (range_ids main).

  (* The three ways the loop of the server treats one announced id. *)

  (* skipped by the loop: unknown, or known, successor height within the chain, but not the active block at its height *)
  Definition skippable (s : N) : Prop :=
    height_of s = None \/
    exists hs, height_of s = Some hs /\ main_at (hs + 1) <> None /\ main_at hs <> Some s.
  (* break with start = hs + 1 *)
  Definition hit (s hs : N) : Prop :=
    height_of s = Some hs /\ main_at hs = Some s /\ main_at (hs + 1) <> None.
  (* "no new info" *)
  Definition silent (s : N) : Prop :=
    exists hs, height_of s = Some hs /\ main_at (hs + 1) = None.

  Lemma scan_cons_skip s r : skippable s -> scan (s :: r) = scan r.
  Proof.
    intros [Hn|(hs & Hh & Hs & Hm)]; cbn [Sync.scan]; rewrite ?Hn, ?Hh; [reflexivity|].
    destruct (main_at (hs + 1)) eqn:E1; [|congruence].
    destruct (main_at hs) as [m|] eqn:E2; [|reflexivity].
    destruct (m =? s) eqn:E3; [|reflexivity]. apply N.eqb_eq in E3. congruence.
  Qed.

  Lemma scan_cons_hit s r hs : hit s hs -> scan (s :: r) = Some (Some (hs + 1)).
  Proof.
    intros (Hh & Hm & Hs). cbn [Sync.scan]. rewrite Hh.
    destruct (main_at (hs + 1)) eqn:E1; [|congruence]. rewrite Hm, N.eqb_refl. reflexivity.
  Qed.

  Lemma scan_cons_silent s r : silent s -> scan (s :: r) = Some None.
  Proof. intros (hs & Hh & Hs). cbn [Sync.scan]. rewrite Hh, Hs. reflexivity. Qed.

  Lemma classify s : skippable s \/ (exists hs, hit s hs) \/ silent s.
  Proof.
    destruct (height_of s) as [hs|] eqn:Hh; [|left; left; exact Hh].
    destruct (main_at (hs + 1)) as [x|] eqn:E1.
    - destruct (main_at hs) as [m|] eqn:E2.
      + destruct (N.eq_dec m s) as [->|Hne].
        * right; left. exists hs. repeat split; auto. congruence.
        * left; right. exists hs. repeat split; auto; congruence.
      + left; right. exists hs. repeat split; auto; congruence.
    - right; right. exists hs. auto.
  Qed.

  Lemma skippable_not_hit s hs : skippable s -> ~ hit s hs.
  Proof. intros [Hn|(h' & Hh & Hs & Hm)] (Hh' & Hm' & Hs'); congruence. Qed.
  Lemma skippable_not_silent s : skippable s -> ~ silent s.
  Proof. intros [Hn|(h' & Hh & Hs & Hm)] (hs & Hh' & Hs'); congruence. Qed.
  Lemma hit_not_silent s hs : hit s hs -> ~ silent s.
  Proof. intros (Hh & Hm & Hs) (h' & Hh' & Hs'). congruence. Qed.

  Lemma scan_app_skip prefix rest : Forall skippable prefix -> scan (prefix ++ rest) = scan rest.
  Proof.
    induction 1 as [|a p Ha Hp IH]; [reflexivity|].
    rewrite <- app_comm_cons, scan_cons_skip; auto.
  Qed.

  Lemma scan_first_hit prefix s suffix hs :
    Forall skippable prefix -> hit s hs -> scan (prefix ++ s :: suffix) = Some (Some (hs + 1)).
  Proof. intros HF Hh. rewrite scan_app_skip by exact HF. apply scan_cons_hit, Hh. Qed.

  Lemma scan_first_silent prefix s suffix :
    Forall skippable prefix -> silent s -> scan (prefix ++ s :: suffix) = Some None.
  Proof. intros HF Hs. rewrite scan_app_skip by exact HF. apply scan_cons_silent, Hs. Qed.

  (* what a result of the scan says about the announced list: the loop skipped a prefix and stopped at s *)
  Lemma scan_spec starts r :
    scan starts = r ->
    match r with
    | None => Forall skippable starts
    | Some None => exists prefix s suffix, starts = prefix ++ s :: suffix /\ Forall skippable prefix /\ silent s
    | Some (Some st) => exists prefix s suffix hs,
        starts = prefix ++ s :: suffix /\ Forall skippable prefix /\ hit s hs /\ st = hs + 1
    end.
  Proof.
    intros <-. induction starts as [|a r IH]; [constructor|].
    destruct (classify a) as [Hs|[(hs & Hh)|Hs]].
    - rewrite (scan_cons_skip a r Hs). destruct (scan r) as [[st|]|].
      + destruct IH as (p & s & suf & hs & -> & HF & Hh). exists (a :: p), s, suf, hs. auto.
      + destruct IH as (p & s & suf & -> & HF & Hh). exists (a :: p), s, suf. auto.
      + constructor; assumption.
    - rewrite (scan_cons_hit a r hs Hh). exists [], a, r, hs. auto.
    - rewrite (scan_cons_silent a r Hs). exists [], a, r. auto.
  Qed.

  (* the loop runs through (Python's for/else) exactly when it skips every announced id *)
  Lemma scan_none_iff starts : scan starts = None <-> Forall skippable starts.
  Proof.
    split; [exact (scan_spec starts None)|].
    intros HF. rewrite <- (app_nil_r starts). exact (scan_app_skip starts [] HF).
  Qed.

  Lemma hit_scan_not_none starts s hs : In s starts -> hit s hs -> scan starts <> None.
  Proof.
    intros Hin Hh E. apply scan_none_iff in E. rewrite Forall_forall in E.
    exact (skippable_not_hit s hs (E s Hin) Hh).
  Qed.

  (* the same with st - 1 instead of an explicit hs *)
  Theorem serve_first_match starts st :
    scan starts = Some (Some st) <->
    exists prefix s suffix, starts = prefix ++ s :: suffix /\ Forall skippable prefix /\
       1 <= st /\ height_of s = Some (st - 1) /\ main_at (st - 1) = Some s /\ main_at st <> None.
  Proof.
    split.
    - intros E. apply scan_spec in E. destruct E as (p & s & suf & hs & Heq & HF & (H1 & H2 & H3) & ->).
      exists p, s, suf. rewrite N.add_sub. repeat split; auto. lia.
    - intros (p & s & suf & -> & HF & Hst & H1 & H2 & H3).
      rewrite <- (N.sub_add 1 st Hst) in H3 |- *. apply scan_first_hit; [exact HF|]. repeat split; assumption.
  Qed.

  (* the start height the server uses *)
  Definition start_of (starts : list N) : N :=
    match scan starts with Some (Some st) => st | _ => 1 end.

  Lemma start_of_hit starts st : scan starts = Some (Some st) -> start_of starts = st.
  Proof. unfold start_of. intros ->. reflexivity. Qed.

  Lemma start_of_cases starts :
    start_of starts = 1 \/ exists s hs, In s starts /\ hit s hs /\ start_of starts = hs + 1.
  Proof.
    unfold start_of. destruct (scan starts) as [[st|]|] eqn:E; auto.
    apply scan_spec in E. destruct E as (p & s & suf & hs & -> & _ & Hh & ->).
    right. exists s, hs. auto using in_elt.
  Qed.

  Lemma range_ids_spec fuel from upto :
    range_ids fuel from upto =
      firstn (Nat.min fuel (N.to_nat (upto - from))) (skipn (N.to_nat from) main).
  Proof.
    revert from. induction fuel as [|f IH]; intros from; [reflexivity|].
    cbn [Sync.range_ids]. destruct (N.ltb_spec from upto) as [Hlt|Hge].
    - replace (N.to_nat (upto - from)) with (S (N.to_nat (upto - (from + 1)))) by lia. cbn [Nat.min].
      destruct (main_at from) as [i|] eqn:Em; unfold Sync.main_at in Em.
      + rewrite (skipn_nth_error_cons _ _ _ Em), IH, N.add_1_r, N2Nat.inj_succ. reflexivity.
      + rewrite skipn_all2 by (apply nth_error_None; exact Em). reflexivity.
    - rewrite (proj2 (N.sub_0_le upto from) Hge), Nat.min_0_r. reflexivity.
  Qed.

  Hypothesis Hne : main <> [].

  Lemma head_height_succ : head_height + 1 = N.of_nat (length main).
  Proof.
    unfold Sync.head_height. destruct main; [congruence|cbn [length]; lia].
  Qed.

  Lemma main_at_none_iff h : main_at h = None <-> head_height < h.
  Proof.
    unfold Sync.main_at. rewrite nth_error_None. pose proof head_height_succ. lia.
  Qed.

  Lemma hit_below s hs : height_of s = Some hs -> main_at hs = Some s -> hs < head_height -> hit s hs.
  Proof. intros Hh Hm Hlt. repeat split; auto. rewrite main_at_none_iff. lia. Qed.

  Lemma silent_above s hs : height_of s = Some hs -> head_height <= hs -> silent s.
  Proof. intros Hh Hle. exists hs. split; [exact Hh|]. apply main_at_none_iff. lia. Qed.

  Lemma scan_hit_le starts st : scan starts = Some (Some st) -> 1 <= st <= head_height.
  Proof.
    intros E. apply scan_spec in E. destruct E as (p & s & suf & hs & _ & _ & (_ & _ & H) & ->).
    rewrite main_at_none_iff in H. lia.
  Qed.

  Hypothesis Hcons : forall i h, nth_error main (N.to_nat h) = Some i -> height_of i = Some h.

  Lemma height_of_nth n i : nth_error main n = Some i -> height_of i = Some (N.of_nat n).
  Proof. intros H. apply Hcons. rewrite Nat2N.id. exact H. Qed.

  Lemma on_main_iff s hs : height_of s = Some hs -> (main_at hs = Some s <-> In s main).
  Proof.
    intros Hh. split; [apply nth_error_In|].
    intros H. apply In_nth_error in H. destruct H as [n Hn].
    pose proof (height_of_nth n s Hn) as Hh'. rewrite Hh in Hh'. injection Hh' as ->.
    unfold Sync.main_at. rewrite Nat2N.id. exact Hn.
  Qed.

  Lemma unknown_not_on_main s : height_of s = None -> ~ In s main.
  Proof.
    intros Hn Hin. apply In_nth_error in Hin. destruct Hin as [n Hin].
    rewrite (height_of_nth n s Hin) in Hn. discriminate Hn.
  Qed.

  (* no id occurs twice on a chain with consistent heights *)
  Lemma main_NoDup : NoDup main.
  Proof.
    apply NoDup_nth_error. intros i j Hi Hij.
    destruct (nth_error main i) as [x|] eqn:Ei; [|apply nth_error_None in Ei; lia].
    symmetry in Hij. apply height_of_nth in Ei, Hij. rewrite Ei in Hij. injection Hij as Hij. lia.
  Qed.

  (* the three classes in terms of "is on the active chain" *)
  Lemma skippable_iff s :
    skippable s <->
    height_of s = None \/ exists hs, height_of s = Some hs /\ hs < head_height /\ ~ In s main.
  Proof.
    unfold skippable.
    split; (intros [H|(hs & Hh & H1 & H2)]; [left; exact H|right; exists hs; split; [exact Hh|]]).
    - rewrite main_at_none_iff in H1. rewrite (on_main_iff s hs Hh) in H2. split; [lia|exact H2].
    - rewrite main_at_none_iff, (on_main_iff s hs Hh). split; [lia|exact H2].
  Qed.

  Lemma hit_iff s hs : hit s hs <-> height_of s = Some hs /\ In s main /\ hs < head_height.
  Proof.
    split; intros (Hh & H1 & H2).
    - split; [exact Hh|]. split; [apply (on_main_iff s hs Hh), H1|]. rewrite main_at_none_iff in H2. lia.
    - apply hit_below; [exact Hh|apply (on_main_iff s hs Hh), H1|exact H2].
  Qed.

  Lemma silent_iff s : silent s <-> exists hs, height_of s = Some hs /\ head_height <= hs.
  Proof using Hne Hcons.
    split; intros (hs & Hh & H1).
    - exists hs. split; [exact Hh|]. apply main_at_none_iff in H1. lia.
    - exact (silent_above s hs Hh H1).
  Qed.

  Variable batch : N.
  Notation serve := (serve batch main height_of).

  Lemma range_window start :
    range_ids (N.to_nat batch) start (N.min (start + batch) (head_height + 1)) =
    firstn (N.to_nat batch) (skipn (N.to_nat start) main).
  Proof.
    rewrite range_ids_spec, <- (firstn_min_length (N.to_nat batch)), skipn_length. f_equal.
    (* `- start` is taken into the N.min first: lia alone closes the goal too, but is slow to check on it *)
    rewrite head_height_succ, <- N.sub_min_distr_r, (N.add_comm start), N.add_sub.
    (* lia counts every hypothesis in its context as used: Hcons is cleared, here and below, where a statement must
       not depend on it *)
    clear Hcons. lia.
  Qed.

  Lemma serve_silent starts : scan starts = Some None -> serve starts = [].
  Proof. unfold Sync.serve. intros ->. reflexivity. Qed.

  (* unless the scan says "no new info", the reply is the next batch of main from the start height on *)
  Theorem serve_window starts :
    scan starts <> Some None ->
    serve starts = firstn (N.to_nat batch) (skipn (N.to_nat (start_of starts)) main).
  Proof.
    intros H. unfold Sync.serve, start_of. destruct (scan starts) as [[st|]|]; [|congruence|]; apply range_window.
  Qed.

  Theorem serve_length starts :
    scan starts <> Some None ->
    N.of_nat (length (serve starts)) = N.min batch (head_height + 1 - start_of starts).
  Proof.
    intros H. rewrite (serve_window starts H), firstn_length, skipn_length.
    rewrite Nat2N.inj_min, Nat2N.inj_sub, !N2Nat.id, head_height_succ. reflexivity.
  Qed.

  Theorem serve_nth starts k i :
    nth_error (serve starts) k = Some i -> main_at (start_of starts + N.of_nat k) = Some i.
  Proof.
    intros H.
    assert (Hsc : scan starts <> Some None)
      by (intros E; rewrite (serve_silent starts E) in H; destruct k; discriminate).
    rewrite (serve_window starts Hsc) in H. apply nth_error_firstn_some in H. rewrite nth_error_skipn_add in H.
    unfold Sync.main_at. rewrite N2Nat.inj_add, Nat2N.id. exact H.
  Qed.

  Theorem serve_consecutive starts ids :
    serve starts = ids ->
    exists start,
      (start = 1 \/ exists s hs, In s starts /\ height_of s = Some hs /\ main_at hs = Some s /\ start = hs + 1) /\
      ids = firstn (length ids) (skipn (N.to_nat start) main) /\
      (length ids <= N.to_nat batch)%nat.
  Proof.
    intros <-. exists (start_of starts). split.
    - destruct (start_of_cases starts) as [H|(s & hs & Hin & (Hh & Hm & _) & Heq)]; [left; exact H|].
      right. exists s, hs. auto.
    - destruct (scan starts) as [[st|]|] eqn:E;
        [rewrite serve_window by congruence|rewrite serve_silent by exact E|rewrite serve_window by congruence];
        auto using firstn_le_length, firstn_length_firstn, Nat.le_0_l.
  Qed.

  (* 0 < batch: the reply is empty exactly when scan says "no new info" (or the server only has genesis) *)
  Theorem serve_empty_iff starts :
    0 < batch ->
    (serve starts = [] <-> scan starts = Some None \/ (scan starts = None /\ head_height = 0)).
  Proof using Hne. clear Hcons.
    intros Hb. rewrite <- length_zero_iff_nil, <- Nat2N.inj_iff. change (N.of_nat 0) with 0.
    destruct (scan starts) as [[st|]|] eqn:E.
    - rewrite serve_length, (start_of_hit starts st E) by congruence. pose proof (scan_hit_le starts st E).
      split.
      + lia.
      + intros [X|[X _]]; discriminate X.
    - rewrite (serve_silent starts E). split; auto.
    - rewrite serve_length by congruence. unfold start_of. rewrite E. split.
      + intros H. right. split; [reflexivity|lia].
      + intros [X|[_ X]]; [discriminate X|lia].
  Qed.

  Theorem serve_parent_known starts first rest :
    serve starts = first :: rest ->
    let start := start_of starts in
    1 <= start /\ main_at start = Some first /\
    (start = 1 \/
     exists p, In p starts /\ height_of p = Some (start - 1) /\ main_at (start - 1) = Some p).
  Proof using Hne. clear Hcons.
    intros Hs start.
    assert (H0 : main_at (start + N.of_nat 0) = Some first) by (apply serve_nth; rewrite Hs; reflexivity).
    rewrite N.add_0_r in H0.
    destruct (start_of_cases starts) as [H1|(s & hs & Hin & (Hh & Hm & _) & Heq)];
      fold start in H1 || fold start in Heq.
    - split; [lia|]. split; [exact H0|]. left. exact H1.
    - split; [lia|]. split; [exact H0|]. right. exists s. rewrite Heq, N.add_sub. auto.
  Qed.

  (* every later id of the reply is the active-chain successor of the previous id of the reply *)
  Theorem serve_chain_links starts k i :
    nth_error (serve starts) (S k) = Some i ->
    exists p, nth_error (serve starts) k = Some p /\
              main_at (start_of starts + N.of_nat k) = Some p /\
              main_at (start_of starts + N.of_nat k + 1) = Some i.
  Proof using Hne. clear Hcons.
    intros Hi. destruct (nth_error (serve starts) k) as [p|] eqn:Ep.
    - exists p. split; [reflexivity|]. split; [apply serve_nth, Ep|].
      apply serve_nth in Hi. rewrite <- Hi, Nat2N.inj_succ, N.add_succ_r, N.add_1_r. reflexivity.
    - apply nth_error_None in Ep. assert (S k < length (serve starts))%nat by (apply nth_error_Some; congruence). lia.
  Qed.

  (* by lia as well, which is slow to check on two N.min; with this rewritten first, serve_last is easy for it *)
  Lemma min_add_sub a b c : a <= c -> N.min (a + b) c = a + N.min b (c - a).
  Proof. intros H. rewrite <- N.add_min_distr_l, (N.add_comm a (c - a)), N.sub_add by exact H. reflexivity. Qed.

  (* the last id of the reply to a request with a hit: where the next request of a requester that asks on will start *)
  Lemma serve_last starts hs :
    0 < batch -> scan starts = Some (Some (hs + 1)) ->
    serve starts <> [] /\
    main_at (N.min (hs + batch) head_height) = Some (last (serve starts) 0) /\
    hs < N.min (hs + batch) head_height.
  Proof using Hne. clear Hcons.
    intros Hb E.
    assert (Hlt : hs < head_height) by (pose proof (scan_hit_le _ _ E); lia).
    assert (Hl : N.of_nat (length (serve starts)) = N.min batch (head_height - hs)).
    { rewrite serve_length, (start_of_hit _ _ E) by congruence. rewrite !N.add_1_r, N.sub_succ. reflexivity. }
    assert (Hne' : serve starts <> []) by (intros E'; rewrite E' in Hl; cbn [length] in Hl; lia).
    rewrite min_add_sub by apply N.lt_le_incl, Hlt.
    split; [exact Hne'|]. split; [|lia].
    rewrite <- (serve_nth starts _ _ (last_nth_error (serve starts) 0 Hne')), (start_of_hit _ _ E).
    f_equal. rewrite Nat2N.inj_sub, Hl. lia.
  Qed.

  Theorem serve_no_new_info_strong prefix s suffix hs :
    Forall skippable prefix -> height_of s = Some hs -> head_height <= hs ->
    serve (prefix ++ s :: suffix) = [].
  Proof.
    intros HF Hh Hle. apply serve_silent, scan_first_silent; [exact HF|exact (silent_above s hs Hh Hle)].
  Qed.

  (* The model's behaviour on a stored side-branch block at (or above) the server's head height: as soon as the scan
     reaches it the reply is empty, whatever follows in the announced list (e.g. common ancestors on the active
     chain further down the list are never looked at). *)
  Theorem side_branch_tip_silences prefix s suffix hs :
    Forall skippable prefix -> ~ In s main -> height_of s = Some hs -> head_height <= hs ->
    scan (prefix ++ s :: suffix) = Some None /\ serve (prefix ++ s :: suffix) = [].
  Proof using Hne.
    intros HF _ Hh Hle. pose proof (scan_first_silent prefix s suffix HF (silent_above s hs Hh Hle)) as E.
    split; [exact E|exact (serve_silent _ E)].
  Qed.

  (* The reply to a request whose first non-skippable id s is on the active chain is the batch that follows s on
     main (empty when s is the head: "no new info"). *)
  Theorem serve_after pre s tl prefix suffix :
    main = pre ++ s :: tl -> Forall skippable prefix ->
    serve (prefix ++ s :: suffix) = firstn (N.to_nat batch) tl.
  Proof.
    intros Hm HF. set (hs := N.of_nat (length pre)).
    assert (Hs : main_at hs = Some s)
      by (unfold Sync.main_at, hs; rewrite Nat2N.id, Hm; apply nth_error_middle).
    assert (Hh : height_of s = Some hs) by (apply Hcons, Hs).
    assert (Hhd : head_height = hs + N.of_nat (length tl))
      by (unfold Sync.head_height, hs; rewrite Hm, app_length; cbn [length]; lia).
    destruct tl as [|y tl']; cbn [length] in Hhd.
    - rewrite firstn_nil. apply (serve_no_new_info_strong prefix s suffix hs HF Hh). lia.
    - assert (E : scan (prefix ++ s :: suffix) = Some (Some (hs + 1)))
        by (apply scan_first_hit, hit_below; auto; lia).
      rewrite serve_window, (start_of_hit _ _ E) by congruence.
      replace (N.to_nat (hs + 1)) with (S (length pre)) by (unfold hs; lia).
      rewrite Hm, skipn_middle. reflexivity.
  Qed.

  (* The start is fixed by the FIRST matching announced id, which may lie below a later announced active-chain id s
     when the announced list is not height-descending (serve_progress_refuted below).  Whatever the order, an announced
     active-chain id below the head and no "no new info" break give a non-empty reply that passes the height st - 1
     of the first match. *)
  Theorem serve_progress_partial starts s hs :
    0 < batch -> In s starts -> height_of s = Some hs -> main_at hs = Some s -> hs < head_height ->
    scan starts <> Some None ->
    exists st s', scan starts = Some (Some st) /\ 1 <= st /\
      In s' starts /\ height_of s' = Some (st - 1) /\ main_at (st - 1) = Some s' /\
      serve starts <> [] /\
      height_of (last (serve starts) 0) = Some (N.min (st + batch - 1) head_height) /\
      st - 1 < N.min (st + batch - 1) head_height.
  Proof.
    intros Hb Hin Hh Hm Hlt Hsc. destruct (scan starts) as [[st|]|] eqn:E; [|congruence|].
    2: destruct (hit_scan_not_none starts s hs Hin (hit_below s hs Hh Hm Hlt) E).
    pose proof (scan_spec starts _ E) as (p & s' & suf & hs' & Heq & _ & (G1 & G2 & _) & ->).
    destruct (serve_last starts hs' Hb E) as (H1 & H2 & H3).
    exists (hs' + 1), s'. rewrite N.add_sub. replace (hs' + 1 + batch - 1) with (hs' + batch) by lia.
    split; [reflexivity|]. split; [lia|]. split; [rewrite Heq; apply in_elt|].
    split; [exact G1|]. split; [exact G2|]. split; [exact H1|]. split; [apply Hcons, H2 | exact H3].
  Qed.

  (* With the announced ids in strictly decreasing height order (as a locator built from recent_heights is), the reply
     passes EVERY announced active-chain id below the head. *)
  Definition desc_heights (starts : list N) : Prop :=
    StronglySorted (fun a b => forall ha hb, height_of a = Some ha -> height_of b = Some hb -> hb < ha) starts.

  Theorem serve_progress_sorted starts s hs :
    0 < batch -> desc_heights starts ->
    In s starts -> height_of s = Some hs -> main_at hs = Some s -> hs < head_height ->
    scan starts <> Some None ->
    serve starts <> [] /\
    height_of (last (serve starts) 0) = Some (N.min (start_of starts + batch - 1) head_height) /\
    hs < N.min (start_of starts + batch - 1) head_height.
  Proof.
    intros Hb Hsort Hin Hh Hm Hlt Hsc.
    destruct (serve_progress_partial starts s hs Hb Hin Hh Hm Hlt Hsc) as (st & _ & E & _ & _ & _ & _ & H1 & H2 & H3).
    rewrite (start_of_hit _ _ E). split; [exact H1|]. split; [exact H2|]. apply N.le_lt_trans with (2 := H3).
    (* s is not before the first match t (skipped ids are no hits), and after t the heights only fall *)
    apply scan_spec in E. destruct E as (p & t & suf & ht & Heq & HF & (G1 & _) & ->). rewrite N.add_sub.
    rewrite Heq in Hin, Hsort. apply in_app_or in Hin. destruct Hin as [Hp|[->|Hsuf]].
    - exfalso. rewrite Forall_forall in HF. exact (skippable_not_hit s hs (HF s Hp) (hit_below s hs Hh Hm Hlt)).
    - rewrite Hh in G1. injection G1 as <-. apply N.le_refl.
    - apply StronglySorted_app_mid in Hsort. rewrite Forall_forall in Hsort.
      apply N.lt_le_incl, (Hsort s Hsuf ht hs G1 Hh).
  Qed.

End ServeProofs.

(* A small server on which the hypotheses above hold (ex_consistent), and what serve computes for it. *)
Definition ex_main : list N := [100; 101; 102; 103; 104; 105].
(* 202: side-branch block at height 2; 205: side-branch block at the head height 5 *)
Definition ex_height_of (i : N) : option N :=
  if i =? 202 then Some 2 else if i =? 205 then Some 5
  else if (100 <=? i) && (i <=? 105) then Some (i - 100) else None.

(* boolean check that height_of maps the ids of l to the heights n, n + 1, ... *)
Fixpoint heights_from (height_of : N -> option N) (n : N) (l : list N) : bool :=
  match l with
  | [] => true
  | i :: r => match height_of i with Some h => h =? n | None => false end && heights_from height_of (n + 1) r
  end.

Lemma heights_from_sound height_of l : forall n,
  heights_from height_of n l = true ->
  forall k i, nth_error l k = Some i -> height_of i = Some (n + N.of_nat k).
Proof.
  induction l as [|a r IH]; intros n H [|k] i Hk; try discriminate Hk;
    cbn [heights_from] in H; apply andb_true_iff in H; destruct H as [Ha Hr].
  - injection Hk as <-. destruct (height_of a) as [h|]; [|discriminate Ha].
    apply N.eqb_eq in Ha. rewrite Ha, N.add_0_r. reflexivity.
  - rewrite (IH _ Hr k i Hk), Nat2N.inj_succ, N.add_1_r, N.add_succ_comm. reflexivity.
Qed.

Lemma heights_from_consistent height_of main :
  heights_from height_of 0 main = true ->
  forall i h, nth_error main (N.to_nat h) = Some i -> height_of i = Some h.
Proof. intros H i h Hn. rewrite (heights_from_sound height_of main 0 H _ i Hn), N2Nat.id. reflexivity. Qed.

Lemma ex_consistent : forall i h, nth_error ex_main (N.to_nat h) = Some i -> ex_height_of i = Some h.
Proof. apply heights_from_consistent. reflexivity. Qed.

Example ex_serve_side_then_main : serve 3 ex_main ex_height_of [999; 202; 101] = [102; 103; 104].
Proof. vm_compute. reflexivity. Qed.
Example ex_serve_head : serve 3 ex_main ex_height_of [105] = [].
Proof. vm_compute. reflexivity. Qed.
Example ex_serve_unknown : serve 3 ex_main ex_height_of [999] = [101; 102; 103].
Proof. vm_compute. reflexivity. Qed.
Example ex_serve_tail : serve 3 ex_main ex_height_of [103] = [104; 105].
Proof. vm_compute. reflexivity. Qed.
(* side-branch tip at the head height silences the server although 103 (active chain, below head) follows *)
Example ex_side_branch_tip_silences : serve 3 ex_main ex_height_of [205; 103] = [].
Proof. vm_compute. reflexivity. Qed.
Example ex_recent_heights_20 : recent_heights 20 = [20; 19; 18; 17; 16; 15; 14; 13; 12; 11; 4].
Proof. vm_compute. reflexivity. Qed.

(* serve_progress_sorted fails without the ordering hypothesis: announced [101; 104] (increasing heights), batch 3:
   the first match 101 fixes start = 2, the reply is [102;103;104], whose last height 4 is not > 4. *)
Theorem serve_progress_refuted :
  exists batch main height_of starts s hs,
    main <> [] /\ (forall i h, nth_error main (N.to_nat h) = Some i -> height_of i = Some h) /\ NoDup main /\
    0 < batch /\ In s starts /\ height_of s = Some hs /\ main_at main hs = Some s /\ hs < head_height main /\
    scan main height_of starts <> Some None /\
    serve batch main height_of starts <> [] /\
    ~ (exists hl, height_of (last (serve batch main height_of starts) 0) = Some hl /\ hs < hl).
Proof.
  exists 3, ex_main, ex_height_of, [101; 104], 104, 4.
  split; [discriminate|]. split; [exact ex_consistent|]. split; [exact (main_NoDup _ _ ex_consistent)|].
  split; [lia|]. split; [right; left; reflexivity|]. split; [reflexivity|]. split; [reflexivity|].
  split; [vm_compute; reflexivity|]. split; [vm_compute; discriminate|]. split; [vm_compute; discriminate|].
  intros (hl & H1 & H2). vm_compute in H1. injection H1 as <-. lia.
Qed.
