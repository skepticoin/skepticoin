(* Lemmas about model/Bytes.v: well-formed byte strings, zeros, bytes_eqb, take (safe_read), fixed-width big-endian
   integers (struct.pack / struct.unpack), bytes_ltb. *)
From Coq Require Import NArith List Lia Bool Arith.
From SkV Require Import Bytes.
Import ListNotations.
Open Scope N_scope.

Lemma bytes_wfb_iff b : bytes_wfb b = true <-> bytes_wf b.
Proof.
  unfold bytes_wfb, bytes_wf. rewrite forallb_forall, Forall_forall.
  split; intros H x Hx; apply N.ltb_lt, H, Hx.
Qed.

Lemma bytes_wf_app a b : bytes_wf (a ++ b) <-> bytes_wf a /\ bytes_wf b.
Proof. apply Forall_app. Qed.

Lemma bytes_wf_cons x b : bytes_wf (x :: b) <-> x < 256 /\ bytes_wf b.
Proof. apply Forall_cons_iff. Qed.

Lemma bytes_wf_firstn n a : bytes_wf a -> bytes_wf (firstn n a).
Proof. intros H. rewrite <- (firstn_skipn n a) in H. apply bytes_wf_app in H. tauto. Qed.

Lemma bytes_wf_skipn n a : bytes_wf a -> bytes_wf (skipn n a).
Proof. intros H. rewrite <- (firstn_skipn n a) in H. apply bytes_wf_app in H. tauto. Qed.

Lemma zeros_length n : length (zeros n) = n.
Proof. apply repeat_length. Qed.

Lemma zeros_wf n : bytes_wf (zeros n).
Proof. apply Forall_forall. intros x Hx. apply repeat_spec in Hx. subst x. reflexivity. Qed.

Lemma bytes_eqb_eq a b : bytes_eqb a b = true <-> a = b.
Proof.
  revert b; induction a as [|x a IH]; intros [|y b]; cbn [bytes_eqb]; try (split; congruence).
  rewrite andb_true_iff, N.eqb_eq, IH. split.
  - intros [-> ->]; reflexivity.
  - intros H; injection H; auto.
Qed.

Lemma bytes_eqb_refl a : bytes_eqb a a = true.
Proof. apply bytes_eqb_eq; reflexivity. Qed.

Lemma bytes_eqb_neq a b : bytes_eqb a b = false <-> a <> b.
Proof. rewrite <- bytes_eqb_eq. symmetry. apply not_true_iff_false. Qed.

Lemma take_app n a r : length a = n -> take n (a ++ r) = Some (a, r).
Proof.
  intros <-. unfold take. rewrite app_length, (proj2 (Nat.leb_le _ _) (Nat.le_add_r _ _)).
  rewrite firstn_app, skipn_app, Nat.sub_diag, firstn_all, skipn_all, app_nil_r. reflexivity.
Qed.

Lemma take_inv n bs a r : take n bs = Some (a, r) -> bs = a ++ r /\ length a = n.
Proof.
  unfold take. destruct (Nat.leb_spec n (length bs)) as [E|E]; [|discriminate].
  intros [= <- <-]. split; [symmetry; apply firstn_skipn|apply firstn_length_le, E].
Qed.

Lemma take_len n bs a r : take n bs = Some (a, r) -> length bs = (n + length r)%nat.
Proof. intros H. apply take_inv in H as [-> <-]. apply app_length. Qed.

Lemma take_zeros n r : take n (zeros n ++ r) = Some (zeros n, r).
Proof. apply take_app, zeros_length. Qed.

Lemma be_dec_aux_snoc acc a b : be_dec_aux acc (a ++ [b]) = be_dec_aux acc a * 256 + b.
Proof. revert acc; induction a as [|x a IH]; intros acc; cbn [app be_dec_aux]; [reflexivity|apply IH]. Qed.

Lemma be_dec_snoc a b : be_dec (a ++ [b]) = be_dec a * 256 + b.
Proof. apply be_dec_aux_snoc. Qed.

Lemma be_enc_S w v : be_enc (S w) v = be_enc w (v / 256) ++ [v mod 256].
Proof. reflexivity. Qed.

Lemma be_enc_length w v : length (be_enc w v) = w.
Proof.
  revert v; induction w as [|w IH]; intros v; [reflexivity|].
  rewrite be_enc_S, app_length, IH. apply Nat.add_1_r.
Qed.

Lemma be_enc_wf w v : bytes_wf (be_enc w v).
Proof.
  revert v; induction w as [|w IH]; intros v; [constructor|].
  rewrite be_enc_S. apply bytes_wf_app. split; [apply IH|].
  apply bytes_wf_cons. split; [apply N.mod_lt; discriminate|constructor].
Qed.

Lemma pow256_S w : 256 ^ N.of_nat (S w) = 256 * 256 ^ N.of_nat w.
Proof. rewrite Nat2N.inj_succ. apply N.pow_succ_r'. Qed.

Lemma pow256_4 : 256 ^ N.of_nat 4 = 2 ^ 32.
Proof. reflexivity. Qed.

Lemma be_dec_enc w : forall v, v < 256 ^ N.of_nat w -> be_dec (be_enc w v) = v.
Proof.
  induction w as [|w IH]; intros v Hv.
  - apply N.lt_1_r in Hv. subst v. reflexivity.
  - rewrite pow256_S in Hv. rewrite be_enc_S, be_dec_snoc, IH, N.mul_comm.
    + symmetry. apply N.div_mod. discriminate.
    + apply N.div_lt_upper_bound; [discriminate|exact Hv].
Qed.

Lemma be_dec_bound h : bytes_wf h -> be_dec h < 256 ^ N.of_nat (length h).
Proof.
  induction h as [|b h IH] using rev_ind; intros Hwf; [reflexivity|].
  apply bytes_wf_app in Hwf as [Hh Hb]. apply bytes_wf_cons in Hb as [Hb _]. specialize (IH Hh).
  rewrite be_dec_snoc, app_length, Nat.add_1_r, pow256_S. lia.
Qed.

Lemma be_enc_dec_w w h : length h = w -> bytes_wf h -> be_enc w (be_dec h) = h.
Proof.
  intros <-. induction h as [|b h IH] using rev_ind; intros Hwf; [reflexivity|].
  apply bytes_wf_app in Hwf as [Hh Hb]. apply bytes_wf_cons in Hb as [Hb _].
  rewrite app_length, Nat.add_1_r, be_enc_S, be_dec_snoc.
  rewrite N.div_add_l, (N.add_comm (_ * _)), N.mod_add, N.div_small, N.mod_small, N.add_0_r, IH
    by (discriminate || assumption).
  reflexivity.
Qed.

(* The bound is kept as a boolean over 256 ^ N.of_nat w: the bounds the models write for the widths they use
   (256, 2 ^ 16, 2 ^ 32, 2 ^ 64) are convertible with it, so [assumption] and [exact] take either form for the other
   and these two lemmas serve every width. *)
Lemma dec_be_rt w v r : (v <? 256 ^ N.of_nat w) = true -> dec_be w (be_enc w v ++ r) = Some (v, r).
Proof.
  intros Hv. unfold dec_be. rewrite take_app, be_dec_enc; [reflexivity|apply N.ltb_lt, Hv|apply be_enc_length].
Qed.

Lemma dec_be_inv w bs v r : bytes_wf bs -> dec_be w bs = Some (v, r) ->
  bs = be_enc w v ++ r /\ (v <? 256 ^ N.of_nat w) = true /\ bytes_wf r.
Proof.
  unfold dec_be. intros Hwf H. destruct (take w bs) as [[h r0]|] eqn:E; [|discriminate].
  injection H as <- <-. apply take_inv in E as [-> <-]. apply bytes_wf_app in Hwf as [Hh Hr].
  rewrite (be_enc_dec_w _ _ eq_refl Hh). split; [reflexivity|]. split; [apply N.ltb_lt, be_dec_bound, Hh|exact Hr].
Qed.

Lemma dec_be_len w bs v r : dec_be w bs = Some (v, r) -> length bs = (w + length r)%nat.
Proof.
  unfold dec_be. destruct (take w bs) as [[h r0]|] eqn:E; [|discriminate]. intros [= _ <-]. apply (take_len _ _ _ _ E).
Qed.

Lemma be_dec_aux_acc acc l : be_dec_aux acc l = acc * 256 ^ N.of_nat (length l) + be_dec l.
Proof.
  unfold be_dec. revert acc; induction l as [|x l IH]; intros acc; cbn [be_dec_aux length].
  - rewrite N.pow_0_r. lia.
  - rewrite (IH (acc * 256 + x)), (IH (0 * 256 + x)), pow256_S. lia.
Qed.

Lemma be_dec_cons x l : be_dec (x :: l) = x * 256 ^ N.of_nat (length l) + be_dec l.
Proof. apply (be_dec_aux_acc (0 * 256 + x)). Qed.

(* bytes_ltb on equally long well-formed byte strings is the numeric comparison of the big-endian values *)
Lemma bytes_ltb_numeric a b :
  length a = length b -> bytes_wf a -> bytes_wf b -> (bytes_ltb a b = true <-> be_dec a < be_dec b).
Proof.
  revert b; induction a as [|x a IH]; intros [|y b] Hlen Ha Hb; try discriminate Hlen.
  - split; [discriminate|intros H; destruct (N.lt_irrefl _ H)].
  - injection Hlen as Hlen. apply bytes_wf_cons in Ha as [_ Ha], Hb as [_ Hb].
    specialize (IH b Hlen Ha Hb). apply be_dec_bound in Ha, Hb.
    rewrite !be_dec_cons, Hlen. rewrite Hlen in Ha. set (K := 256 ^ N.of_nat (length b)) in *.
    cbn [bytes_ltb]. destruct (N.ltb_spec x y) as [Hxy|Hyx]; [|destruct (N.ltb_spec y x) as [Hyx'|Hxy]].
    + assert ((x + 1) * K <= y * K) by (apply N.mul_le_mono_r; lia). split; [lia|reflexivity].
    + assert ((y + 1) * K <= x * K) by (apply N.mul_le_mono_r; lia). split; [discriminate|lia].
    + assert (x = y) as -> by lia. rewrite IH. lia.
Qed.
