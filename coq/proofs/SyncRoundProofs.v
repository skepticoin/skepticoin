(* Convergence of initial block download (IBD) in the LINEAR case, over model/Sync.v (Section Round).

   One round: the requester (chain `rc`, ids by height, genesis first) announces `locator_ids rc`, the server
   (active chain `main`) answers `serve batch main height_of (locator_ids rc)`, the requester appends the reply:
       round rc = rc ++ serve batch main height_of (locator_ids rc).

   SCOPE.  Everything below assumes that the requester's chain is a PREFIX of the server's active chain
   (`prefix_of rc`): a fresh node that only has genesis, or a node that simply fell behind.
   The FORKED case (the requester's tip lies on a different branch than the server's active chain, so that the
   requester would have to find the fork point through the deeper locator entries and then reorganise) is NOT
   covered by any theorem of this file.  In that case `round` (which blindly appends the reply to `rc`) is not even a
   meaningful model of the requester; see `ex_forked_round_not_a_chain` at the end for what the definition computes.
   Also not modelled here: several peers, lost / reordered messages, invalid blocks, a server whose chain changes
   between rounds.

   The locator of a prefix starts with its tip, which lies on main, so the reply is the batch after the tip
   (round_reply, from SyncProofs.serve_after); hence n rounds append the next n batches (rounds_closed). *)
From Coq Require Import NArith List Bool Lia.
From SkV Require Import Sync ListFacts SyncProofs.
Import ListNotations.
Open Scope N_scope.

(* needs no hypothesis on the server: the first announced id is the requester's tip *)
Lemma locator_head_strong rc : rc <> [] -> exists tl, locator_ids rc = last rc 0 :: tl.
Proof.
  intros Hrc. unfold locator_ids.
  destruct (recent_heights_cons (N.of_nat (length rc) - 1)) as [tl ->]. cbn [flat_map].
  rewrite N2Nat.inj_sub, Nat2N.id. change (N.to_nat 1) with 1%nat.
  rewrite (last_nth_error rc 0 Hrc). cbn [app]. eexists. reflexivity.
Qed.

Lemma rounds_add batch main height_of n : forall m rc,
  rounds batch main height_of (n + m) rc = rounds batch main height_of m (rounds batch main height_of n rc).
Proof. induction n as [|n IH]; intros m rc; [reflexivity|apply IH]. Qed.

Section RoundProofs.
  Variable batch : N.
  Variable main : list N.
  Variable height_of : N -> option N.

  Notation round := (round batch main height_of).
  Notation rounds := (rounds batch main height_of).

  (* the requester's chain is an initial segment of the server's active chain *)
  Definition prefix_of (rc : list N) : Prop := exists rest, main = rc ++ rest.

  Theorem locator_head rc :
    rc <> [] -> prefix_of rc -> exists tl, locator_ids rc = last rc 0 :: tl.
  Proof. intros Hrc _. apply locator_head_strong; exact Hrc. Qed.

  Hypothesis Hne : main <> [].
  Hypothesis Hcons : forall i h, nth_error main (N.to_nat h) = Some i -> height_of i = Some h.

  (* exact reply of the server in the linear case: the next min(batch, remaining) ids of the active chain *)
  Lemma round_reply rc rest :
    rc <> [] -> main = rc ++ rest ->
    serve batch main height_of (locator_ids rc) = firstn (N.to_nat batch) rest.
  Proof.
    intros Hrc Hr. destruct (locator_head_strong rc Hrc) as [tl ->].
    apply (serve_after main height_of Hne Hcons batch (removelast rc) (last rc 0) rest [] tl); [|constructor].
    rewrite Hr at 1. rewrite (app_removelast_last 0 Hrc) at 1. rewrite <- app_assoc. reflexivity.
  Qed.

  (* closed form of n rounds: n more batches of the rest of main *)
  Theorem rounds_closed n : forall rc rest,
    rc <> [] -> main = rc ++ rest -> rounds n rc = rc ++ firstn (n * N.to_nat batch) rest.
  Proof.
    induction n as [|n IH]; intros rc rest Hrc Hr; [symmetry; apply app_nil_r|].
    cbn [Sync.rounds]. unfold Sync.round at 1. rewrite (round_reply rc rest Hrc Hr).
    rewrite (IH _ (skipn (N.to_nat batch) rest)).
    - change (S n * N.to_nat batch)%nat with (N.to_nat batch + n * N.to_nat batch)%nat.
      rewrite firstn_add. symmetry. apply app_assoc.
    - destruct rc; [congruence|discriminate].
    - rewrite <- app_assoc, firstn_skipn. exact Hr.
  Qed.

  Theorem rounds_converge rc :
    rc <> [] -> prefix_of rc ->
    forall n, prefix_of (rounds n rc) /\
              length (rounds n rc) = Nat.min (length main) (length rc + n * N.to_nat batch).
  Proof.
    intros Hrc [rest Hr] n. rewrite (rounds_closed n rc rest Hrc Hr). split.
    - exists (skipn (n * N.to_nat batch) rest). rewrite <- app_assoc, firstn_skipn. exact Hr.
    - rewrite Hr, !app_length, firstn_length. lia.
  Qed.

  (* explicit number of rounds: anything >= ceil((length main - length rc) / batch) *)
  Theorem ibd_reaches rc n :
    rc <> [] -> prefix_of rc ->
    (length main <= length rc + n * N.to_nat batch)%nat -> rounds n rc = main.
  Proof.
    intros Hrc [rest Hr] Hn. rewrite (rounds_closed n rc rest Hrc Hr), firstn_all2; [symmetry; exact Hr|].
    rewrite Hr, app_length in Hn. lia.
  Qed.

  (* and before that the download is not finished *)
  Theorem ibd_not_before rc n :
    rc <> [] -> prefix_of rc ->
    (length rc + n * N.to_nat batch < length main)%nat -> rounds n rc <> main.
  Proof.
    intros Hrc Hp Hn E. destruct (rounds_converge rc Hrc Hp n) as [_ Hl]. rewrite E in Hl. lia.
  Qed.

  Hypothesis Hb : 0 < batch.

  (* length main rounds always suffice, and further rounds change nothing *)
  Corollary ibd_stable rc m :
    rc <> [] -> prefix_of rc -> rounds (length main + m) rc = main.
  Proof using Hne Hcons Hb.
    intros Hrc Hp. apply ibd_reaches; auto.
    pose proof (le_mul_pos (length main + m) (N.to_nat batch)). lia.
  Qed.

  Corollary ibd_terminates rc :
    rc <> [] -> prefix_of rc -> exists n, rounds n rc = main.
  Proof. intros Hrc Hp. exists (length main + 0)%nat. exact (ibd_stable rc 0 Hrc Hp). Qed.

  (* monotone: a round never removes anything, and the chain only grows along main *)
  Corollary round_extends rc : rc <> [] -> prefix_of rc -> exists ext, round rc = rc ++ ext /\ prefix_of (rc ++ ext).
  Proof using Hne Hcons Hb.
    intros Hrc Hp. exists (serve batch main height_of (locator_ids rc)). split; [reflexivity|].
    exact (proj1 (rounds_converge rc Hrc Hp 1)).
  Qed.
End RoundProofs.

Definition ibd_main : list N := [100; 101; 102; 103; 104; 105; 106; 107; 108; 109].
Definition ibd_height_of (i : N) : option N :=
  if (100 <=? i) && (i <=? 109) then Some (i - 100) else None.

Lemma ibd_main_ne : ibd_main <> [].
Proof. discriminate. Qed.

Lemma ibd_consistent : forall i h, nth_error ibd_main (N.to_nat h) = Some i -> ibd_height_of i = Some h.
Proof. apply heights_from_consistent. reflexivity. Qed.

Lemma ibd_prefix_genesis : prefix_of ibd_main [100].
Proof. eexists. reflexivity. Qed.

(* fresh node holding only genesis, batch 4: 1 -> 5 -> 9 -> 10 blocks *)
Example ex_ibd_round1 : round 4 ibd_main ibd_height_of [100] = [100; 101; 102; 103; 104].
Proof. vm_compute. reflexivity. Qed.
Example ex_ibd_rounds2 : rounds 4 ibd_main ibd_height_of 2 [100] = [100; 101; 102; 103; 104; 105; 106; 107; 108].
Proof. vm_compute. reflexivity. Qed.
Example ex_ibd_rounds3 : rounds 4 ibd_main ibd_height_of 3 [100] = ibd_main.
Proof. vm_compute. reflexivity. Qed.
Example ex_ibd_rounds7 : rounds 4 ibd_main ibd_height_of 7 [100] = ibd_main.
Proof. vm_compute. reflexivity. Qed.

(* the same facts obtained from the general theorems: the hypotheses are satisfiable *)
Example ex_ibd_rounds3_thm : rounds 4 ibd_main ibd_height_of 3 [100] = ibd_main.
Proof.
  apply (ibd_reaches 4 ibd_main ibd_height_of ibd_main_ne ibd_consistent);
    [discriminate|exact ibd_prefix_genesis|cbn; lia].
Qed.
Example ex_ibd_rounds2_thm : rounds 4 ibd_main ibd_height_of 2 [100] <> ibd_main.
Proof.
  apply (ibd_not_before 4 ibd_main ibd_height_of ibd_main_ne ibd_consistent);
    [discriminate|exact ibd_prefix_genesis|cbn; lia].
Qed.
Example ex_ibd_terminates : exists n, rounds 4 ibd_main ibd_height_of n [100] = ibd_main.
Proof.
  apply (ibd_terminates 4 ibd_main ibd_height_of ibd_main_ne ibd_consistent);
    [reflexivity|discriminate|exact ibd_prefix_genesis].
Qed.

(* NOT COVERED: a forked requester.  Requester chain [100; 201; 202] where 201, 202 are unknown to the server:
   the locator is [202; 201; 100], the server skips the two unknown ids, finds 100 and replies with the active chain
   from height 1; `round` just appends that reply, and the result is not a chain at all (and not a prefix of main).
   So the definitions of `round`/`rounds` say nothing useful about forked requesters, and neither does this file. *)
Example ex_forked_round_not_a_chain :
  round 4 ibd_main ibd_height_of [100; 201; 202] = [100; 201; 202; 101; 102; 103; 104]
  /\ ~ prefix_of ibd_main (round 4 ibd_main ibd_height_of [100; 201; 202]).
Proof.
  split; [vm_compute; reflexivity|]. intros [rest H]. vm_compute in H. discriminate.
Qed.

