(* C19: the peer book.  Proofs about model/PeerBook.v: the two tables stay disjoint after every event sequence,
   the back-off decision and its trace-level consequence for the log of connection attempts, self-connections,
   the peers file; with example runs and the counter-examples that show which provisos are needed. *)
From Coq Require Import NArith List Bool Lia.
From SkV Require Import PeerBook ListFacts.
Import ListNotations.
Open Scope N_scope.

Lemma dir_eqb_eq a b : dir_eqb a b = true <-> a = b.
Proof. destruct a, b; cbn; split; intros H; try reflexivity; discriminate. Qed.

Lemma key_eqb_eq a b : key_eqb a b = true <-> a = b.
Proof.
  destruct a as [h p d], b as [h' p' d']; unfold key_eqb; cbn [k_host k_port k_dir]. split.
  - intros H. apply andb_prop in H. destruct H as [H Hd]. apply andb_prop in H. destruct H as [Hh Hp].
    apply N.eqb_eq in Hh, Hp. apply dir_eqb_eq in Hd. subst. reflexivity.
  - intros H. inversion H. rewrite !N.eqb_refl. apply dir_eqb_eq. reflexivity.
Qed.

Lemma key_eqb_refl k : key_eqb k k = true.
Proof. apply key_eqb_eq; reflexivity. Qed.

Lemma key_eqb_neq a b : key_eqb a b = false <-> a <> b.
Proof. rewrite <- key_eqb_eq. symmetry. apply not_true_iff_false. Qed.

Lemma negb_key_eqb a b : negb (key_eqb a b) = true <-> a <> b.
Proof. rewrite negb_true_iff. apply key_eqb_neq. Qed.

Lemma key_eq_dec (a b : pkey) : {a = b} + {a <> b}.
Proof.
  destruct (key_eqb a b) eqn:E; [left; apply key_eqb_eq; exact E | right; apply key_eqb_neq; exact E].
Qed.

(* A table is a list of records with a key field: connected_peers is one by c_key, disconnected_peers one by d_key
   (and the connected one is also looked at by c_id).  The model's find_conn / del_conn / set_conn and their _disc
   twins are tfind / tdel / tset at these keys, by computation; the lemmas take the key function as first argument,
   and giving it at each use spares Coq inferring it through the unfolding. *)
Section Table.
  Context {A : Type} (key : A -> pkey).
  Implicit Types (l : list A) (a x : A) (k : pkey).

  Definition tfind l k := find (fun a => key_eqb (key a) k) l.
  Definition tdel l k := filter (fun a => negb (key_eqb (key a) k)) l.
  Definition tset l a := tdel l (key a) ++ [a].

  Lemma tfind_some l k a : tfind l k = Some a -> In a l /\ key a = k.
  Proof. intros H. apply find_some in H. rewrite key_eqb_eq in H. exact H. Qed.

  Lemma tfind_none l k : tfind l k = None <-> forall a, In a l -> key a <> k.
  Proof.
    split.
    - intros H a Ha. apply key_eqb_neq. exact (find_none _ _ H a Ha).
    - intros H. destruct (tfind l k) as [a|] eqn:E; [|reflexivity].
      apply tfind_some in E. destruct E as [Ha E]. destruct (H a Ha E).
  Qed.

  Lemma tfind_none_keys l k : tfind l k = None -> ~ In k (map key l).
  Proof.
    intros F H. apply in_map_iff in H. destruct H as (a & E & Ha). exact (proj1 (tfind_none l k) F a Ha E).
  Qed.

  Lemma tfind_nodup l a : NoDup (map key l) -> In a l -> tfind l (key a) = Some a.
  Proof.
    intros ND Ha. destruct (tfind l (key a)) as [a'|] eqn:E.
    - apply tfind_some in E. destruct E as [Ha' E]. f_equal. exact (NoDup_map_inj_in key l a' a ND Ha' Ha E).
    - destruct (proj1 (tfind_none _ _) E a Ha eq_refl).
  Qed.

  Lemma in_tdel l k x : In x (tdel l k) <-> In x l /\ key x <> k.
  Proof. unfold tdel. rewrite filter_In, negb_key_eqb. reflexivity. Qed.

  Lemma in_tset l a x : In x (tset l a) <-> (In x l /\ key x <> key a) \/ x = a.
  Proof.
    unfold tset. rewrite in_snoc, in_tdel. reflexivity.
  Qed.

  Lemma tdel_id l k : (forall a, In a l -> key a <> k) -> tdel l k = l.
  Proof. intros H. apply filter_all, Forall_forall. intros a Ha. apply negb_key_eqb, H, Ha. Qed.

  Lemma tdel_tdel l k : tdel (tdel l k) k = tdel l k.
  Proof. apply tdel_id. intros a Ha. apply in_tdel in Ha. apply Ha. Qed.

  Lemma tset_tdel l a : tset (tdel l (key a)) a = tset l a.
  Proof. unfold tset. rewrite tdel_tdel. reflexivity. Qed.

  Lemma tdel_tset l a : tdel (tset l a) (key a) = tdel l (key a).
  Proof.
    unfold tset, tdel at 1. rewrite filter_app. cbn. rewrite key_eqb_refl. cbn. rewrite app_nil_r. apply tdel_tdel.
  Qed.

  Lemma tfind_tset l a : tfind (tset l a) (key a) = Some a.
  Proof.
    unfold tfind, tset, tdel. induction l as [|x l IH]; cbn.
    - rewrite key_eqb_refl. reflexivity.
    - destruct (key_eqb (key x) (key a)) eqn:K; cbn; [exact IH|]. rewrite K. exact IH.
  Qed.

  Lemma nodup_tset l a : NoDup (map key l) -> NoDup (map key (tset l a)).
  Proof.
    intros H. apply NoDup_map_snoc; [apply NoDup_map_filter, H|]. intros y Hy. apply in_tdel in Hy. apply Hy.
  Qed.

  Lemma keys_tdel l k0 k : In k (map key l) -> k <> k0 -> In k (map key (tdel l k0)).
  Proof.
    intros H Ne. apply in_map_iff in H. destruct H as (x & <- & Hx). apply in_map, in_tdel. exact (conj Hx Ne).
  Qed.

  Lemma keys_tset l a k : In k (map key l) \/ k = key a -> In k (map key (tset l a)).
  Proof.
    unfold tset. rewrite map_app. intros H. apply in_or_app.
    destruct (key_eq_dec k (key a)) as [->|Ne]; [right; left; reflexivity | left].
    destruct H as [H|H]; [apply keys_tdel; assumption | contradiction].
  Qed.
End Table.

Lemma find_disc_nodup l d : NoDup (map d_key l) -> In d l -> find_disc l (d_key d) = Some d.
Proof. apply (tfind_nodup d_key). Qed.

Lemma find_conn_nodup l c : NoDup (map c_key l) -> In c l -> find_conn l (c_key c) = Some c.
Proof. apply (tfind_nodup c_key). Qed.

Lemma del_conn_id l k : (forall c, In c l -> c_key c <> k) -> del_conn l k = l.
Proof. apply (tdel_id c_key). Qed.

Lemma NoDup_by_key_spec {A} (key : A -> pkey) (l : list A) :
  NoDup (map key l) <-> ForallOrdPairs (fun a b => key_eqb (key a) (key b) = false) l.
Proof.
  induction l as [|a l IH]; cbn [map]; [split; constructor|]. split.
  - intros H. apply NoDup_cons_iff in H. destruct H as [Na H]. constructor; [|apply IH, H].
    apply Forall_forall. intros x Hx. apply key_eqb_neq. intros E. apply Na. rewrite E. apply in_map, Hx.
  - intros H. inversion H as [|? ? Ha Hl]; subst. constructor; [|apply IH, Hl].
    intros Hin. apply in_map_iff in Hin. destruct Hin as (x & E & Hx).
    exact (proj1 (key_eqb_neq _ _) (proj1 (Forall_forall _ _) Ha x Hx) (eq_sym E)).
Qed.

Lemma book_eta b : mkBook (b_conn b) (b_disc b) (b_mine b) (b_attempts b) = b.
Proof. destruct b; reflexivity. Qed.

(* peer_disconnected: the connected entry for the key goes; if there was one and it is outgoing, disconnected_entry c,
   with the key and last attempt time of c, replaces whatever the disconnected table had for the key *)
Definition disconnected_entry (c : conn) : dpeer :=
  mkD (c_key c) (if c_hello c then c_ban c else c_ban c + 1) (c_last c).

Lemma peer_disconnected_cases b c :
  let b' disc := mkBook (del_conn (b_conn b) (c_key c)) disc (b_mine b) (b_attempts b) in
  (peer_disconnected b c = b' (b_disc b) /\
   (find_conn (b_conn b) (c_key c) = None \/ k_dir (c_key c) = Incoming)) \/
  (peer_disconnected b c = b' (set_disc (b_disc b) (disconnected_entry c)) /\
   find_conn (b_conn b) (c_key c) <> None /\ k_dir (c_key c) = Outgoing).
Proof.
  unfold peer_disconnected. destruct (find_conn (b_conn b) (c_key c)) eqn:F.
  - destruct (k_dir (c_key c)); [left | right]; repeat split; auto. discriminate.
  - left. rewrite del_conn_id, book_eta by (apply (tfind_none c_key); exact F). auto.
Qed.

Lemma peer_disconnected_conn b c : b_conn (peer_disconnected b c) = del_conn (b_conn b) (c_key c).
Proof. destruct (peer_disconnected_cases b c) as [[-> _]|[-> _]]; reflexivity. Qed.

Lemma peer_disconnected_mine b c : b_mine (peer_disconnected b c) = b_mine b.
Proof. destruct (peer_disconnected_cases b c) as [[-> _]|[-> _]]; reflexivity. Qed.

Lemma peer_disconnected_attempts b c : b_attempts (peer_disconnected b c) = b_attempts b.
Proof. destruct (peer_disconnected_cases b c) as [[-> _]|[-> _]]; reflexivity. Qed.

(* peer_connected and start_outgoing do the same to the tables; start_outgoing also logs the attempt *)
Definition connect (b : book) (c : conn) (log : list (pkey * N)) : book :=
  mkBook (set_conn (b_conn b) c) (del_disc (b_disc b) (c_key c)) (b_mine b) log.

(* the "duplicate" branch of handle_peer_connected leaves no trace in the book: what it moves to the disconnected
   table is deleted again, what it deletes from the connected table would be deleted anyway *)
Lemma peer_connected_eq b c : peer_connected b c = connect b c (b_attempts b).
Proof.
  unfold peer_connected, connect. destruct (find_conn (b_conn b) (c_key c)) as [old|] eqn:F; [|reflexivity].
  apply (tfind_some c_key) in F. destruct F as [_ E].
  rewrite peer_disconnected_conn, peer_disconnected_mine, peer_disconnected_attempts, E. f_equal.
  - apply (tset_tdel c_key).
  - destruct (peer_disconnected_cases b old) as [[-> _]|[-> _]]; cbn [b_disc]; [reflexivity|].
    rewrite <- E. apply (tdel_tset d_key).
Qed.

Lemma start_outgoing_eq b d now fresh :
  start_outgoing b d now fresh
  = connect b (mkConn (d_key d) fresh false (d_ban d) (Some now)) (b_attempts b ++ [(d_key d, now)]).
Proof. unfold start_outgoing. rewrite peer_connected_eq. reflexivity. Qed.

Lemma learn_cases b k :
  learn b k = b \/
  (find_disc (b_disc b) k = None /\ find_conn (b_conn b) k = None /\
   learn b k = mkBook (b_conn b) (b_disc b ++ [mkD k 0 None]) (b_mine b) (b_attempts b)).
Proof.
  unfold learn. destruct (find_disc (b_disc b) k); [left; reflexivity|].
  destruct (find_conn (b_conn b) k); [left; reflexivity|]. right; auto.
Qed.

(* learn, hence peers_msg, touches the disconnected table only *)
Lemma learn_rest b k : exists disc, learn b k = mkBook (b_conn b) disc (b_mine b) (b_attempts b).
Proof. destruct (learn_cases b k) as [->|(_ & _ & ->)]; eexists; [symmetry; apply book_eta | reflexivity]. Qed.

(* peers_msg learns outgoing keys one after the other *)
Lemma peers_ind (P : book -> Prop) :
  (forall b k, P b -> k_dir k = Outgoing -> P (learn b k)) -> forall l b, P b -> P (peers_msg b l).
Proof. intros HP l b. apply fold_left_ind. intros x a Hx. apply HP; [exact Hx | reflexivity]. Qed.

Lemma peers_rest b l : exists disc, peers_msg b l = mkBook (b_conn b) disc (b_mine b) (b_attempts b).
Proof.
  apply peers_ind; [|eexists; symmetry; apply book_eta]. intros x k [disc ->] _. exact (learn_rest _ k).
Qed.

(* hello: every entry with the identity of c becomes hello_c' c; then learn or peer_disconnected *)
Definition hello_c' (c : conn) : conn := mkConn (c_key c) (c_id c) true 0 (c_last c).
Definition hello_upd (b : book) (c : conn) : list conn :=
  map (fun x => if c_id x =? c_id c then hello_c' c else x) (b_conn b).

Lemma hello_unfold b c p m :
  hello b c p m =
  match k_dir (c_key c) with
  | Incoming => learn (mkBook (hello_upd b c) (b_disc b) (b_mine b) (b_attempts b)) (mkKey (k_host (c_key c)) p Outgoing)
  | Outgoing =>
      if m then peer_disconnected (mkBook (hello_upd b c) (b_disc b) (b_mine b ++ [(k_host (c_key c), k_port (c_key c))])
                                          (b_attempts b)) (hello_c' c)
      else mkBook (hello_upd b c) (b_disc b) (b_mine b) (b_attempts b)
  end.
Proof. reflexivity. Qed.

Lemma in_hello_upd b c x : In x (hello_upd b c) -> (In x (b_conn b) /\ c_id x <> c_id c) \/ x = hello_c' c.
Proof.
  unfold hello_upd. rewrite in_map_iff. intros (y & E & Hy).
  destruct (c_id y =? c_id c) eqn:I; [right; auto|]. apply N.eqb_neq in I. subst; left; auto.
Qed.

Lemma hello_upd_in b c : In c (b_conn b) -> In (hello_c' c) (hello_upd b c).
Proof.
  intros H. unfold hello_upd. apply in_map_iff. exists c. rewrite N.eqb_refl. auto.
Qed.

Lemma hello_upd_ids b c : map c_id (hello_upd b c) = map c_id (b_conn b).
Proof.
  unfold hello_upd. rewrite map_map. apply map_ext. intros x.
  destruct (c_id x =? c_id c) eqn:I; [|reflexivity]. apply N.eqb_eq in I. cbn. congruence.
Qed.

(* if no other entry has the identity of c, the update replaces c alone and the keys stay as they are *)
Definition id_unique (b : book) (c : conn) : Prop := forall x, In x (b_conn b) -> c_id x = c_id c -> x = c.

Lemma hello_upd_keys b c : id_unique b c -> map c_key (hello_upd b c) = map c_key (b_conn b).
Proof.
  intros U. unfold hello_upd. rewrite map_map. apply map_ext_in. intros x Hx.
  destruct (c_id x =? c_id c) eqn:I; [|reflexivity]. apply N.eqb_eq in I. rewrite (U x Hx I). reflexivity.
Qed.

Lemma hello_attempts b c p m : b_attempts (hello b c p m) = b_attempts b.
Proof.
  rewrite hello_unfold. destruct (k_dir (c_key c)).
  - edestruct learn_rest as [disc ->]. reflexivity.
  - destruct m; [exact (peer_disconnected_attempts _ _) | reflexivity].
Qed.

Lemma hello_mine b c p m : incl (b_mine b) (b_mine (hello b c p m)).
Proof.
  rewrite hello_unfold. destruct (k_dir (c_key c)).
  - edestruct learn_rest as [disc ->]. apply incl_refl.
  - destruct m; [rewrite peer_disconnected_mine; apply incl_appl|]; apply incl_refl.
Qed.

(* a greeting with the node's own nonce on an outgoing connection: the greeted connection is still in the table, so
   this is the full disconnect of an outgoing peer that has said hello (ban score back to 0) *)
Lemma hello_self_eq b c p :
  In c (b_conn b) -> k_dir (c_key c) = Outgoing ->
  hello b c p true =
  mkBook (del_conn (hello_upd b c) (c_key c)) (set_disc (b_disc b) (mkD (c_key c) 0 (c_last c)))
         (b_mine b ++ [(k_host (c_key c), k_port (c_key c))]) (b_attempts b).
Proof.
  intros Hc Dir. rewrite hello_unfold, Dir.
  set (b0 := mkBook _ _ _ _). destruct (peer_disconnected_cases b0 (hello_c' c)) as [[_ [F|F]]|[-> _]].
  - (* not in the table: it is *) destruct (proj1 (tfind_none c_key _ _) F _ (hello_upd_in b c Hc) eq_refl).
  - (* incoming: it is outgoing *) cbn in F. congruence.
  - reflexivity.
Qed.

(* NetworkManager._sanity_check as a proposition *)
Definition Sane (b : book) : Prop :=
  forall c d, In c (b_conn b) -> In d (b_disc b) -> c_key c <> d_key d.

Lemma sane_iff b : sane b = true <-> Sane b.
Proof.
  unfold sane, Sane. rewrite forallb_forall. split.
  - intros H c d Hc Hd E. specialize (H c Hc).
    destruct (find_disc (b_disc b) (c_key c)) eqn:F; [discriminate|].
    exact (proj1 (tfind_none d_key _ _) F d Hd (eq_sym E)).
  - intros H c Hc. destruct (find_disc (b_disc b) (c_key c)) eqn:F; [|reflexivity].
    apply (tfind_some d_key) in F. destruct F as [Hd E]. destruct (H c d Hc Hd (eq_sym E)).
Qed.

Definition Inv (b : book) : Prop :=
  NoDup (map c_key (b_conn b)) /\ NoDup (map d_key (b_disc b)) /\ sane b = true.

Lemma Inv_empty : Inv book_empty.
Proof. repeat split; constructor. Qed.

Lemma peer_disconnected_Sane b c : Sane b -> Sane (peer_disconnected b c).
Proof.
  intros S x d Hx Hd. rewrite peer_disconnected_conn in Hx. apply (in_tdel c_key) in Hx. destruct Hx as [Hx Ne].
  destruct (peer_disconnected_cases b c) as [[E _]|[E _]]; rewrite E in Hd; cbn [b_disc] in Hd.
  - exact (S x d Hx Hd).
  - apply (in_tset d_key) in Hd. destruct Hd as [[Hd _]| ->]; [exact (S x d Hx Hd) | exact Ne].
Qed.

Lemma connect_Sane b c log : Sane b -> Sane (connect b c log).
Proof.
  intros S x d Hx Hd. apply (in_tset c_key) in Hx. apply (in_tdel d_key) in Hd. destruct Hd as [Hd Ne].
  destruct Hx as [[Hx _]| ->]; [exact (S x d Hx Hd) | congruence].
Qed.

Lemma learn_Sane b k : Sane b -> Sane (learn b k).
Proof.
  intros S. destruct (learn_cases b k) as [->|(_ & F & ->)]; [exact S|].
  intros c d Hc Hd. apply in_snoc in Hd. destruct Hd as [Hd| ->].
  - exact (S c d Hc Hd).
  - exact (proj1 (tfind_none c_key _ _) F c Hc).
Qed.

Lemma hello_upd_Sane b c m a : Sane b -> In c (b_conn b) -> Sane (mkBook (hello_upd b c) (b_disc b) m a).
Proof.
  intros S Hc x d Hx Hd. apply in_hello_upd in Hx. destruct Hx as [[Hx _]| ->]; [|cbn]; apply S; assumption.
Qed.

Lemma hello_Sane b c p m : Sane b -> In c (b_conn b) -> Sane (hello b c p m).
Proof.
  intros S Hc. rewrite hello_unfold. destruct (k_dir (c_key c)).
  - apply learn_Sane, hello_upd_Sane; assumption.
  - destruct m; [apply peer_disconnected_Sane|]; apply hello_upd_Sane; assumption.
Qed.

Lemma Inv_intro b : NoDup (map c_key (b_conn b)) -> NoDup (map d_key (b_disc b)) -> Sane b -> Inv b.
Proof. intros K1 K2 S. apply sane_iff in S. repeat split; assumption. Qed.

(* Every operation but hello keeps Inv whatever the identities of the connection objects are. *)
Lemma peer_disconnected_Inv b c : Inv b -> Inv (peer_disconnected b c).
Proof.
  intros (K1 & K2 & S). apply Inv_intro.
  - rewrite peer_disconnected_conn. apply NoDup_map_filter, K1.
  - destruct (peer_disconnected_cases b c) as [[-> _]|[-> _]]; [exact K2 | apply (nodup_tset d_key), K2].
  - apply peer_disconnected_Sane, sane_iff, S.
Qed.

Lemma connect_Inv b c log : Inv b -> Inv (connect b c log).
Proof.
  intros (K1 & K2 & S). apply Inv_intro; cbn [connect b_conn b_disc].
  - apply (nodup_tset c_key), K1.
  - apply NoDup_map_filter, K2.
  - apply connect_Sane, sane_iff, S.
Qed.

Lemma peer_connected_Inv b c : Inv b -> Inv (peer_connected b c).
Proof. rewrite peer_connected_eq. apply connect_Inv. Qed.

Lemma start_outgoing_Inv b d now fresh : Inv b -> Inv (start_outgoing b d now fresh).
Proof. rewrite start_outgoing_eq. apply connect_Inv. Qed.

Lemma learn_Inv b k : Inv b -> Inv (learn b k).
Proof.
  intros I. pose proof I as (K1 & K2 & S). destruct (learn_cases b k) as [->|(F & _ & E)]; [exact I|].
  apply Inv_intro.
  - rewrite E. exact K1.
  - rewrite E. apply NoDup_map_snoc; [exact K2 | apply (tfind_none d_key), F].
  - apply learn_Sane, sane_iff, S.
Qed.

Lemma peers_Inv b l : Inv b -> Inv (peers_msg b l).
Proof. apply peers_ind. intros x k I _. apply learn_Inv, I. Qed.

(* hello finds its connection object by identity: the keys of the connected table stay distinct if no other entry
   has that identity (and may not otherwise: C19_idclash_nodup_refuted) *)
Lemma hello_upd_Inv b c m a :
  Inv b -> In c (b_conn b) -> id_unique b c -> Inv (mkBook (hello_upd b c) (b_disc b) m a).
Proof.
  intros (K1 & K2 & S) Hc U. apply Inv_intro; cbn [b_conn b_disc].
  - rewrite hello_upd_keys by exact U. exact K1.
  - exact K2.
  - apply hello_upd_Sane; [apply sane_iff, S | exact Hc].
Qed.

Lemma hello_Inv b c p m : Inv b -> In c (b_conn b) -> id_unique b c -> Inv (hello b c p m).
Proof.
  intros I Hc U. rewrite hello_unfold. destruct (k_dir (c_key c)).
  - apply learn_Inv, hello_upd_Inv; assumption.
  - destruct m; [apply peer_disconnected_Inv|]; apply hello_upd_Inv; assumption.
Qed.

(* all live identities are distinct and below the next one *)
Definition IdInv (b : book) (n : N) : Prop :=
  NoDup (map c_id (b_conn b)) /\ forall c, In c (b_conn b) -> c_id c < n.

Lemma IdInv_weaken b n m : IdInv b n -> n <= m -> IdInv b m.
Proof. intros (I1 & I2) L. split; [exact I1|]. intros c Hc. exact (N.lt_le_trans _ _ _ (I2 c Hc) L). Qed.

Lemma IdInv_unique b n c : IdInv b n -> In c (b_conn b) -> id_unique b c.
Proof. intros (I1 & _) Hc x Hx E. exact (NoDup_map_inj_in c_id _ x c I1 Hx Hc E). Qed.

Lemma peer_disconnected_IdInv b c n : IdInv b n -> IdInv (peer_disconnected b c) n.
Proof.
  intros [I1 I2]. unfold IdInv. rewrite peer_disconnected_conn. split.
  - apply NoDup_map_filter, I1.
  - intros x Hx. apply (in_tdel c_key) in Hx. apply I2, Hx.
Qed.

(* a connection object with a new identity, below the new bound *)
Lemma connect_IdInv b c log n m :
  IdInv b n -> (forall x, In x (b_conn b) -> c_id x <> c_id c) -> n <= m -> c_id c < m ->
  IdInv (connect b c log) m.
Proof.
  intros [I1 I2] Hfresh L Lc. split; cbn [connect b_conn].
  - apply NoDup_map_snoc; [apply NoDup_map_filter, I1|].
    intros x Hx. apply (in_tdel c_key) in Hx. apply Hfresh, Hx.
  - intros x Hx. apply (in_tset c_key) in Hx. destruct Hx as [[Hx _]| ->]; [|exact Lc].
    exact (N.lt_le_trans _ _ _ (I2 x Hx) L).
Qed.

Lemma learn_IdInv b k n : IdInv b n -> IdInv (learn b k) n.
Proof. intros Id. destruct (learn_rest b k) as [disc ->]. exact Id. Qed.

Lemma peers_IdInv b l n : IdInv b n -> IdInv (peers_msg b l) n.
Proof. apply (peers_ind (fun x => IdInv x n)). intros x k Id _. apply learn_IdInv, Id. Qed.

Lemma hello_upd_IdInv b c m a n : IdInv b n -> In c (b_conn b) -> IdInv (mkBook (hello_upd b c) (b_disc b) m a) n.
Proof.
  intros [I1 I2] Hc. split; cbn [b_conn].
  - rewrite hello_upd_ids. exact I1.
  - intros x Hx. apply in_hello_upd in Hx. destruct Hx as [[Hx _]| ->]; [|cbn [hello_c' c_id]]; apply I2; assumption.
Qed.

Lemma hello_IdInv b c p m n : IdInv b n -> In c (b_conn b) -> IdInv (hello b c p m) n.
Proof.
  intros H Hc. rewrite hello_unfold. destruct (k_dir (c_key c)).
  - apply learn_IdInv, hello_upd_IdInv; assumption.
  - destruct m; [apply peer_disconnected_IdInv|]; apply hello_upd_IdInv; assumption.
Qed.

(* time of the last logged attempt for key k *)
Fixpoint last_att (l : list (pkey * N)) (k : pkey) : option N :=
  match l with
  | [] => None
  | a :: r => match last_att r k with
              | Some t => Some t
              | None => if key_eqb (fst a) k then Some (snd a) else None
              end
  end.

Lemma last_att_app l1 l2 k :
  last_att (l1 ++ l2) k = match last_att l2 k with Some t => Some t | None => last_att l1 k end.
Proof.
  induction l1 as [|a l1 IH]; cbn [app last_att].
  - destruct (last_att l2 k); reflexivity.
  - rewrite IH. destruct (last_att l2 k); reflexivity.
Qed.

Lemma last_att_snoc l k' t k : last_att (l ++ [(k', t)]) k = if key_eqb k' k then Some t else last_att l k.
Proof. rewrite last_att_app. cbn. destruct (key_eqb k' k); reflexivity. Qed.

Lemma last_att_snoc_ne l k' t k : k <> k' -> last_att (l ++ [(k', t)]) k = last_att l k.
Proof. intros Ne. rewrite last_att_snoc. apply not_eq_sym, key_eqb_neq in Ne. rewrite Ne. reflexivity. Qed.

Lemma last_att_some_in l k t : last_att l k = Some t -> In (k, t) l.
Proof.
  induction l as [|[k' t'] l IH]; cbn [last_att fst snd]; [discriminate|].
  destruct (last_att l k) as [t0|].
  - intros E. right. apply IH. exact E.
  - destruct (key_eqb k' k) eqn:K; [|discriminate]. apply key_eqb_eq in K.
    intros E. left. congruence.
Qed.

Lemma last_att_none l k : last_att l k = None <-> forall t, ~ In (k, t) l.
Proof.
  split.
  - intros H t Hin. apply in_split in Hin. destruct Hin as (l1 & l2 & ->).
    rewrite last_att_app in H. cbn [last_att fst snd] in H. rewrite key_eqb_refl in H.
    destruct (last_att l2 k); discriminate.
  - intros H. destruct (last_att l k) as [t|] eqn:E; [|reflexivity].
    apply last_att_some_in in E. destruct (H t E).
Qed.

Definition HasKey (b : book) (k : pkey) : Prop :=
  In k (map c_key (b_conn b)) \/ In k (map d_key (b_disc b)).

(* outgoing keys never leave the book: disconnecting moves them to the disconnected table, ... *)
Lemma peer_disconnected_HasKey b c k : HasKey b k -> k_dir k = Outgoing -> HasKey (peer_disconnected b c) k.
Proof.
  intros H Dir. destruct (peer_disconnected_cases b c) as [[-> F]|[-> _]].
  - (* nothing moved: c has no entry or is incoming, so k is not the key that goes *)
    destruct H as [H|H]; [left|right; exact H].
    apply (keys_tdel c_key); [exact H|]. intros ->. destruct F as [F|F]; [|congruence].
    exact (tfind_none_keys c_key _ _ F H).
  - (* the key of c moves to the disconnected table *)
    destruct H as [H|H]; [|right; apply (keys_tset d_key); left; exact H].
    destruct (key_eq_dec k (c_key c)) as [->|Ne]; [right; apply (keys_tset d_key); right; reflexivity|].
    left. apply (keys_tdel c_key); assumption.
Qed.

(* ... connecting moves them back *)
Lemma connect_HasKey b c log k : HasKey b k \/ k = c_key c -> HasKey (connect b c log) k.
Proof.
  intros H. destruct (key_eq_dec k (c_key c)) as [->|Ne]; [left; apply (keys_tset c_key); right; reflexivity|].
  destruct H as [[H|H]|H]; [left; apply (keys_tset c_key); left; exact H | | contradiction].
  right. apply (keys_tdel d_key); assumption.
Qed.

(* The link between the attempt log and the book: every entry carries the time of the last logged attempt for
   its key, every logged key is an outgoing one and still in the book, only outgoing peers wait for reconnection. *)
Definition LogInv (b : book) : Prop :=
  (forall d, In d (b_disc b) -> d_last d = last_att (b_attempts b) (d_key d)) /\
  (forall c, In c (b_conn b) -> c_last c = last_att (b_attempts b) (c_key c)) /\
  (forall k t, In (k, t) (b_attempts b) -> HasKey b k /\ k_dir k = Outgoing) /\
  (forall d, In d (b_disc b) -> k_dir (d_key d) = Outgoing).

Lemma LogInv_empty : LogInv book_empty.
Proof. repeat split; cbn; intros; contradiction. Qed.

Lemma LogInv_no_att b k : LogInv b -> k_dir k = Incoming \/ ~ HasKey b k -> last_att (b_attempts b) k = None.
Proof.
  intros (_ & _ & C & _) H. apply last_att_none. intros t Hin. destruct (C k t Hin) as [HK O].
  destruct H as [H|H]; [congruence | exact (H HK)].
Qed.

(* an operation that leaves the log alone keeps the link if its new entries agree with the log and no outgoing
   key leaves the book *)
Lemma LogInv_frame b b' :
  LogInv b -> b_attempts b' = b_attempts b ->
  (forall d, In d (b_disc b') ->
     In d (b_disc b) \/ d_last d = last_att (b_attempts b) (d_key d) /\ k_dir (d_key d) = Outgoing) ->
  (forall c, In c (b_conn b') -> In c (b_conn b) \/ c_last c = last_att (b_attempts b) (c_key c)) ->
  (forall k, HasKey b k -> k_dir k = Outgoing -> HasKey b' k) ->
  LogInv b'.
Proof.
  intros (A & B & C & D) E Hd Hc HK. unfold LogInv. rewrite E. split; [|split; [|split]].
  - intros d Hin. destruct (Hd d Hin) as [H|[H _]]; auto.
  - intros c Hin. destruct (Hc c Hin) as [H|H]; auto.
  - intros k t Hin. destruct (C k t Hin) as [H O]. auto.
  - intros d Hin. destruct (Hd d Hin) as [H|[_ H]]; auto.
Qed.

(* the disconnected object must carry the last attempt time the log has for its key: true of a live connection,
   not of a stale object (C19_backoff_trace_refuted), harmless for an incoming one *)
Lemma peer_disconnected_LogInv b c :
  LogInv b ->
  (k_dir (c_key c) = Incoming \/ c_last c = last_att (b_attempts b) (c_key c)) ->
  LogInv (peer_disconnected b c).
Proof.
  intros H Hc. apply LogInv_frame with (1 := H); [apply peer_disconnected_attempts| | |].
  - destruct (peer_disconnected_cases b c) as [[-> _]|[-> [_ Dir]]]; cbn [b_disc]; [tauto|]. intros d Hd.
    apply (in_tset d_key) in Hd. destruct Hd as [[Hd _]| ->]; [left; exact Hd | right].
    split; [|exact Dir]. destruct Hc as [Hc|Hc]; [congruence | exact Hc].
  - intros x Hx. rewrite peer_disconnected_conn in Hx. apply (in_tdel c_key) in Hx. left. apply Hx.
  - intros k. apply peer_disconnected_HasKey.
Qed.

(* the one operation that extends the log: the entries whose last time it makes stale are the ones it replaces *)
Lemma start_outgoing_LogInv b d now fresh :
  LogInv b -> k_dir (d_key d) = Outgoing -> LogInv (start_outgoing b d now fresh).
Proof.
  intros (A & B & C & D) Dir. rewrite start_outgoing_eq.
  split; [|split; [|split]]; cbn [connect b_conn b_disc b_attempts c_key].
  - intros x Hx. apply (in_tdel d_key) in Hx. destruct Hx as [Hx Ne].
    rewrite (last_att_snoc_ne _ _ _ _ Ne). exact (A x Hx).
  - intros x Hx. apply (in_tset c_key) in Hx. destruct Hx as [[Hx Ne]| ->].
    + rewrite (last_att_snoc_ne _ _ _ _ Ne). exact (B x Hx).
    + rewrite last_att_snoc. cbn [c_key c_last]. rewrite key_eqb_refl. reflexivity.
  - intros k t Hin. apply in_snoc in Hin. destruct Hin as [Hin|E].
    + destruct (C k t Hin) as [HK O]. split; [apply connect_HasKey; left; exact HK | exact O].
    + inversion E; subst. split; [apply connect_HasKey; right; reflexivity | exact Dir].
  - intros x Hx. apply (in_tdel d_key) in Hx. apply D, Hx.
Qed.

Lemma learn_LogInv b k : LogInv b -> k_dir k = Outgoing -> LogInv (learn b k).
Proof.
  intros H Dir. destruct (learn_cases b k) as [->|(F1 & F2 & ->)]; [exact H|].
  apply LogInv_frame with (1 := H); cbn [b_conn b_disc]; [reflexivity| |tauto|].
  - intros d Hd. apply in_snoc in Hd. destruct Hd as [Hd| ->]; [left; exact Hd | right].
    split; [|exact Dir]. symmetry. apply (LogInv_no_att b k H). right.
    intros [HK|HK]; [exact (tfind_none_keys c_key _ _ F2 HK) | exact (tfind_none_keys d_key _ _ F1 HK)].
  - intros k' [HK|HK] _; [left; exact HK | right]. cbn [b_disc]. rewrite map_app. apply in_or_app. left; exact HK.
Qed.

Lemma hello_upd_LogInv b c m :
  LogInv b -> In c (b_conn b) -> id_unique b c -> LogInv (mkBook (hello_upd b c) (b_disc b) m (b_attempts b)).
Proof.
  intros H Hc U. apply LogInv_frame with (1 := H); cbn [b_conn b_disc]; [reflexivity|tauto| |].
  - intros x Hx. apply in_hello_upd in Hx. destruct Hx as [[Hx _]| ->]; [left; exact Hx | right].
    exact (proj1 (proj2 H) c Hc).
  - unfold HasKey. cbn [b_conn b_disc]. rewrite hello_upd_keys by exact U. tauto.
Qed.

Lemma hello_LogInv b c p m : LogInv b -> In c (b_conn b) -> id_unique b c -> LogInv (hello b c p m).
Proof.
  intros H Hc U. rewrite hello_unfold. destruct (k_dir (c_key c)).
  - apply learn_LogInv; [apply hello_upd_LogInv; assumption | reflexivity].
  - destruct m; [|apply hello_upd_LogInv; assumption].
    apply peer_disconnected_LogInv; [apply hello_upd_LogInv; assumption|]. right. exact (proj1 (proj2 H) c Hc).
Qed.

Section Run.
  Variables fw mw ma : N.   (* first_wait max_wait max_attempts *)

  (* what every attempt keeps, a manager step keeps *)
  Lemma step_disc_ind (P : book -> Prop) now :
    (forall b d fresh, P b -> due fw mw ma b now d = true -> P (start_outgoing b d now fresh)) ->
    forall ds b fresh, P b -> P (step_disc fw mw ma b ds now fresh).
  Proof.
    intros HP. induction ds as [|d r IH]; intros b fresh Hb; cbn [step_disc]; [exact Hb|].
    destruct (due fw mw ma b now d) eqn:E; apply IH; [apply HP|]; assumption.
  Qed.

  Lemma step_disc_Sane ds b now fresh : Sane b -> Sane (step_disc fw mw ma b ds now fresh).
  Proof. apply step_disc_ind. intros x d f S _. rewrite start_outgoing_eq. apply connect_Sane, S. Qed.

  Lemma step_disc_Inv ds b now fresh : Inv b -> Inv (step_disc fw mw ma b ds now fresh).
  Proof. apply step_disc_ind. intros x d f I _. apply start_outgoing_Inv, I. Qed.

  Lemma step_disc_IdInv ds : forall b now fresh,
    IdInv b fresh -> IdInv (step_disc fw mw ma b ds now fresh) (fresh + N.of_nat (length ds)).
  Proof.
    induction ds as [|d r IH]; intros b now fresh H; cbn [step_disc length].
    - apply (IdInv_weaken b fresh); [exact H | lia].
    - destruct (due fw mw ma b now d).
      + (* an attempt: the new connection object has identity fresh, the rest of the step goes on from fresh + 1 *)
        apply (IdInv_weaken _ (fresh + 1 + N.of_nat (length r))); [apply IH | lia].
        rewrite start_outgoing_eq. apply (connect_IdInv b _ _ fresh); cbn [c_id]; [exact H | | lia..].
        intros x Hx. destruct H as (_ & I2). specialize (I2 x Hx). lia.
      + apply (IdInv_weaken _ (fresh + N.of_nat (length r))); [apply IH, H | lia].
  Qed.

  Lemma step_disc_mine ds b now fresh : b_mine (step_disc fw mw ma b ds now fresh) = b_mine b.
  Proof.
    apply (step_disc_ind (fun x => b_mine x = b_mine b)); [|reflexivity].
    intros x d f E _. rewrite start_outgoing_eq. exact E.
  Qed.

  (* the attempts made by one manager step are exactly the due entries of the snapshot, in order: due looks at
     b_mine only, which an attempt does not change *)
  Lemma step_disc_attempts ds : forall b now fresh,
    b_attempts (step_disc fw mw ma b ds now fresh)
    = b_attempts b ++ map (fun d => (d_key d, now)) (filter (due fw mw ma b now) ds).
  Proof.
    induction ds as [|d r IH]; intros b now fresh; cbn [step_disc filter]; [cbn; rewrite app_nil_r; reflexivity|].
    destruct (due fw mw ma b now d) eqn:E; [|apply IH].
    rewrite IH, start_outgoing_eq. cbn [connect b_attempts]. rewrite <- app_assoc.
    (* the filter on the left is by `due ... (connect b _ _)`, which computes to `due ... b`: b_mine is the same *)
    reflexivity.
  Qed.

  Theorem step_attempts_exact b now fresh :
    b_attempts (step fw mw ma b now fresh)
    = b_attempts b ++ map (fun d => (d_key d, now)) (filter (due fw mw ma b now) (b_disc b)).
  Proof. apply step_disc_attempts. Qed.

  Theorem step_attempts_only_due b now fresh :
    exists new, b_attempts (step fw mw ma b now fresh) = b_attempts b ++ new /\
      forall k t, In (k, t) new -> t = now /\ exists d, In d (b_disc b) /\ d_key d = k /\ due fw mw ma b now d = true.
  Proof.
    eexists. split; [apply step_attempts_exact|].
    intros k t Hin. apply in_map_iff in Hin. destruct Hin as (d & E & Hd). inversion E; subst.
    apply filter_In in Hd. split; [reflexivity|]. exists d. tauto.
  Qed.

  Inductive ev :=
  | EStep (now : N)
  | EAccept (k : pkey) (id : N)            (* incoming connection from (k_host k, k_port k); direction forced to Incoming *)
  | EHello (id : N) (my_port : N) (mine : bool)
  | EPeers (l : list (N * N))
  | EDisconnect (id : N)
  | EDisconnectStale (c : conn).

  (* run state: the book, the next fresh connection id, and a ghost log (key, time, ban score of the
     disconnected entry that was used) parallel to b_attempts *)
  Record st := mkSt { s_book : book; s_next : N; s_glog : list (pkey * N * N) }.

  Definition find_id (l : list conn) (id : N) : option conn := find (fun c => c_id c =? id) l.

  Definition accept_conn (k : pkey) (id : N) : conn := mkConn (mkKey (k_host k) (k_port k) Incoming) id false 0 None.

  Definition apply_ev (s : st) (e : ev) : st :=
    let b := s_book s in
    match e with
    | EStep now =>
        mkSt (step fw mw ma b now (s_next s)) (s_next s + N.of_nat (length (b_disc b)))
             (s_glog s ++ map (fun d => (d_key d, now, d_ban d)) (filter (due fw mw ma b now) (b_disc b)))
    | EAccept k id => mkSt (peer_connected b (accept_conn k id)) (N.max (s_next s) (id + 1)) (s_glog s)
    | EHello id p m =>
        match find_id (b_conn b) id with
        | Some c => mkSt (hello b c p m) (s_next s) (s_glog s)
        | None => s
        end
    | EPeers l => mkSt (peers_msg b l) (s_next s) (s_glog s)
    | EDisconnect id =>
        match find_id (b_conn b) id with
        | Some c => mkSt (peer_disconnected b c) (s_next s) (s_glog s)
        | None => s
        end
    | EDisconnectStale c => mkSt (peer_disconnected b c) (s_next s) (s_glog s)
    end.

  Definition s_init : st := mkSt book_empty 0 [].
  Definition run_from (s : st) (evs : list ev) : st := fold_left apply_ev evs s.
  Definition run (evs : list ev) : st := run_from s_init evs.

  Lemma find_id_some l id c : find_id l id = Some c -> In c l /\ c_id c = id.
  Proof. unfold find_id. intros H. apply find_some in H. rewrite N.eqb_eq in H. exact H. Qed.

  (* An event other than a step or an accept leaves the state as it is (no connection has that identity) or applies
     hello, peers_msg or peer_disconnected to the book; the connection is a live one unless the event is a stale
     disconnect. *)
  Lemma apply_ev_ind (P : st -> Prop) s e :
    let b := s_book s in
    let upd b' := mkSt b' (s_next s) (s_glog s) in
    P s ->
    (forall now, e = EStep now -> P (apply_ev s e)) ->
    (forall k id, e = EAccept k id -> P (apply_ev s e)) ->
    (forall c p m, In c (b_conn b) -> P (upd (hello b c p m))) ->
    (forall l, P (upd (peers_msg b l))) ->
    (forall c, In c (b_conn b) \/ e = EDisconnectStale c -> P (upd (peer_disconnected b c))) ->
    P (apply_ev s e).
  Proof.
    intros b upd H0 Hs Ha Hh Hp Hd. destruct e as [now|k id|id p m|l|id|c].
    - exact (Hs now eq_refl).
    - exact (Ha k id eq_refl).
    - cbn [apply_ev]. destruct (find_id _ id) as [c|] eqn:F; [|exact H0]. apply find_id_some in F. apply Hh, F.
    - apply Hp.
    - cbn [apply_ev]. destruct (find_id _ id) as [c|] eqn:F; [|exact H0].
      apply find_id_some in F. apply Hd. left. apply F.
    - apply Hd. right. reflexivity.
  Qed.

  (* sanity alone is preserved by EVERY event, with no assumption on connection ids *)
  Theorem apply_Sane s e : Sane (s_book s) -> Sane (s_book (apply_ev s e)).
  Proof.
    intros S. apply apply_ev_ind; cbn [s_book].
    - exact S.
    - intros now ->. apply step_disc_Sane, S.
    - intros k id ->. cbn [apply_ev s_book]. rewrite peer_connected_eq. apply connect_Sane, S.
    - intros c p m Hc. apply hello_Sane; assumption.
    - intros l. apply peers_ind; [|exact S]. intros; apply learn_Sane; assumption.
    - intros c _. apply peer_disconnected_Sane, S.
  Qed.

  Theorem run_from_Sane evs s : Sane (s_book s) -> Sane (s_book (run_from s evs)).
  Proof. apply (fold_left_ind apply_ev (fun x => Sane (s_book x))). intros x e. apply apply_Sane. Qed.

  Theorem C19_sane_always evs : sane (s_book (run evs)) = true.
  Proof. apply sane_iff, run_from_Sane. intros c d []. Qed.

  Definition SInv (s : st) : Prop := Inv (s_book s) /\ IdInv (s_book s) (s_next s).

  (* an accepted connection object must be a NEW object: its identity is not that of a live connection *)
  Definition ev_wf (s : st) (e : ev) : Prop :=
    match e with
    | EAccept _ id => forall c, In c (b_conn (s_book s)) -> c_id c <> id
    | _ => True
    end.

  Theorem apply_SInv s e : SInv s -> ev_wf s e -> SInv (apply_ev s e).
  Proof.
    intros [I D] W. apply apply_ev_ind; [exact (conj I D)|..]; unfold SInv; cbn [s_book s_next].
    - intros now ->. split; [apply step_disc_Inv, I | apply step_disc_IdInv, D].
    - intros k id ->. cbn [apply_ev s_book s_next]. rewrite peer_connected_eq. split; [apply connect_Inv, I|].
      apply (connect_IdInv _ _ _ (s_next s)); cbn [accept_conn c_id]; [exact D | exact W | lia..].
    - intros c p m Hc. split; [|apply hello_IdInv; assumption].
      apply hello_Inv; [exact I | exact Hc | exact (IdInv_unique _ _ c D Hc)].
    - intros l. split; [apply peers_Inv, I | apply peers_IdInv, D].
    - intros c _. split; [apply peer_disconnected_Inv, I | apply peer_disconnected_IdInv, D].
  Qed.

  Fixpoint wf_run (s : st) (evs : list ev) : Prop :=
    match evs with
    | [] => True
    | e :: r => ev_wf s e /\ wf_run (apply_ev s e) r
    end.

  Lemma SInv_init : SInv s_init.
  Proof. split; [exact Inv_empty | split; [constructor | intros c []]]. Qed.

  Theorem run_from_SInv evs : forall s, SInv s -> wf_run s evs -> SInv (run_from s evs).
  Proof.
    unfold run_from. induction evs as [|e r IH]; intros s S W; cbn [fold_left]; [exact S|].
    destruct W as [W1 W2]. apply IH; [apply apply_SInv; assumption | exact W2].
  Qed.

  (* guarded run: an EAccept that re-uses the identity of a live connection object is impossible in the real
     node (object identity) and is skipped; with this run function the invariant holds for EVERY event list *)
  Definition ev_wfb (s : st) (e : ev) : bool :=
    match e with
    | EAccept _ id => negb (existsb (fun c => c_id c =? id) (b_conn (s_book s)))
    | _ => true
    end.

  Lemma ev_wfb_spec s e : ev_wfb s e = true -> ev_wf s e.
  Proof.
    destruct e; cbn; auto. rewrite negb_true_iff, <- not_true_iff_false, existsb_eqb_In_map.
    intros H c Hc E. apply H. rewrite <- E. apply in_map, Hc.
  Qed.

  Definition apply_g (s : st) (e : ev) : st := if ev_wfb s e then apply_ev s e else s.
  Definition run_g (evs : list ev) : st := fold_left apply_g evs s_init.

  Lemma apply_g_SInv s e : SInv s -> SInv (apply_g s e).
  Proof.
    intros S. unfold apply_g. destruct (ev_wfb s e) eqn:W; [|exact S].
    apply apply_SInv; [exact S | apply ev_wfb_spec; exact W].
  Qed.

  Theorem run_g_SInv evs : SInv (run_g evs).
  Proof. unfold run_g. apply fold_left_ind; [exact apply_g_SInv | exact SInv_init]. Qed.

  Theorem C19_disjoint :
    Inv book_empty /\
    (forall s e, SInv s -> ev_wf s e -> SInv (apply_ev s e)) /\
    (forall evs, wf_run s_init evs -> Inv (s_book (run evs))) /\
    (forall evs, Inv (s_book (run_g evs))) /\
    (forall evs, sane (s_book (run evs)) = true).
  Proof.
    split; [exact Inv_empty|]. split; [exact apply_SInv|]. split; [|split].
    - intros evs W. exact (proj1 (run_from_SInv evs s_init SInv_init W)).
    - intros evs. exact (proj1 (run_g_SInv evs)).
    - exact C19_sane_always.
  Qed.

  Lemma is_time_to_connect_true d now : is_time_to_connect fw mw ma d now = true ->
    d_ban d <= ma /\ forall t, d_last d = Some t -> wait_for fw mw (d_ban d) <= now - t.
  Proof.
    unfold is_time_to_connect. destruct (ma <? d_ban d) eqn:B; [discriminate|]. apply N.ltb_ge in B.
    intros H. split; [exact B|]. intros t E. rewrite E in H. apply N.leb_le, H.
  Qed.

  Lemma due_true b now d : due fw mw ma b now d = true ->
    k_dir (d_key d) = Outgoing /\
    ~ In (k_host (d_key d), k_port (d_key d)) (b_mine b) /\
    is_time_to_connect fw mw ma d now = true.
  Proof.
    unfold due. intros H. apply andb_prop in H. destruct H as [H H3]. apply andb_prop in H. destruct H as [H1 H2].
    split; [apply dir_eqb_eq, H1 | split; [|exact H3]].
    intros Hin. apply negb_true_iff, not_true_iff_false in H2. apply H2.
    apply existsb_exists. eexists. split; [exact Hin|]. cbn. rewrite !N.eqb_refl. reflexivity.
  Qed.

  Theorem C19_backoff :
    (forall d now t, is_time_to_connect fw mw ma d now = true -> d_last d = Some t -> t <= now ->
                     wait_for fw mw (d_ban d) <= now - t) /\
    (forall d now, ma < d_ban d -> is_time_to_connect fw mw ma d now = false).
  Proof.
    split; [intros d now t H E _; exact (proj2 (is_time_to_connect_true d now H) t E)|].
    intros d now L. apply not_true_is_false. intros H.
    exact (proj1 (N.lt_nge _ _) L (proj1 (is_time_to_connect_true d now H))).
  Qed.

  Lemma step_disc_LogInv ds b now fresh : LogInv b -> LogInv (step_disc fw mw ma b ds now fresh).
  Proof.
    apply step_disc_ind. intros x d f Hx E. apply due_true in E. exact (start_outgoing_LogInv x d now f Hx (proj1 E)).
  Qed.

  Lemma accept_LogInv b k id : LogInv b -> LogInv (peer_connected b (accept_conn k id)).
  Proof.
    intros H. rewrite peer_connected_eq. apply LogInv_frame with (1 := H); [reflexivity| | |].
    - intros d Hd. apply (in_tdel d_key) in Hd. left. apply Hd.
    - intros x Hx. apply (in_tset c_key) in Hx. destruct Hx as [[Hx _]| ->]; [left; exact Hx | right].
      symmetry. apply (LogInv_no_att b _ H). left; reflexivity.
    - intros x Hx _. apply connect_HasKey. left; exact Hx.
  Qed.

  (* A connection object that is no longer in the table may be disconnected again only if it is an incoming one: for
     an outgoing one the link with the log breaks (C19_backoff_trace_refuted). *)
  Definition stale_ok (e : ev) : Prop :=
    match e with EDisconnectStale c => k_dir (c_key c) = Incoming | _ => True end.

  Lemma apply_LogInv s e : SInv s -> LogInv (s_book s) -> stale_ok e -> LogInv (s_book (apply_ev s e)).
  Proof.
    intros S H St. apply apply_ev_ind; cbn [s_book].
    - exact H.
    - intros now ->. apply step_disc_LogInv, H.
    - intros k id ->. apply accept_LogInv, H.
    - intros c p m Hc. apply hello_LogInv; [exact H | exact Hc | exact (IdInv_unique _ _ c (proj2 S) Hc)].
    - intros l. apply peers_ind; [|exact H]. intros b k Hb Dir. apply learn_LogInv; assumption.
    - intros c Hc. apply peer_disconnected_LogInv; [exact H|].
      destruct Hc as [Hc| ->]; [right; exact (proj1 (proj2 H) c Hc) | left; exact St].
  Qed.

  (* spacing of the (ghost-annotated) attempt log: every attempt respects the back-off relative to the previous
     attempt for the same key, with the ban score the entry had when the decision was taken *)
  Definition Spaced (L : list (pkey * N * N)) : Prop :=
    forall P k t2 n2 S, L = P ++ (k, t2, n2) :: S ->
      n2 <= ma /\
      forall t1, last_att (map fst P) k = Some t1 -> wait_for fw mw n2 <= t2 - t1 /\ t1 <= t2.

  Lemma Spaced_snoc L k t2 n2 :
    Spaced L -> n2 <= ma ->
    (forall t1, last_att (map fst L) k = Some t1 -> wait_for fw mw n2 <= t2 - t1 /\ t1 <= t2) ->
    Spaced (L ++ [(k, t2, n2)]).
  Proof.
    intros Sp Hn Hw P k' t' n' S E. destruct S as [|y S _] using rev_ind.
    - apply app_inj_tail in E. destruct E as [-> E]. inversion E; subst. auto.
    - rewrite app_comm_cons, app_assoc in E. apply app_inj_tail in E. destruct E as [E _].
      exact (Sp P k' t' n' S E).
  Qed.

  (* one manager step at time `now` appends the due entries F of the snapshot: their keys are distinct, so for each
     of them the previous attempt is the one the log had before the step, which is what is_time_to_connect saw *)
  Lemma Spaced_step L now (F : list dpeer) :
    Spaced L -> NoDup (map d_key F) ->
    (forall d, In d F -> is_time_to_connect fw mw ma d now = true /\ d_last d = last_att (map fst L) (d_key d)) ->
    (forall k t, In (k, t) (map fst L) -> t <= now) ->
    Spaced (L ++ map (fun d => (d_key d, now, d_ban d)) F).
  Proof.
    intros Sp ND HF HT. induction F as [|d F IH] using rev_ind; [rewrite app_nil_r; exact Sp|].
    rewrite map_app in ND. apply NoDup_snoc in ND. destruct ND as [ND Nd].
    destruct (HF d) as [Itc Last]; [apply in_snoc; right; reflexivity|].
    apply is_time_to_connect_true in Itc. destruct Itc as [Hn Hw].
    rewrite map_app, app_assoc. apply Spaced_snoc.
    - apply IH; [exact ND|]. intros x Hx. apply HF, in_or_app. left; exact Hx.
    - exact Hn.
    - intros t1 Ht1. rewrite map_app, last_att_app, !map_map in Ht1. cbn [fst] in Ht1.
      replace (last_att (map (fun x => (d_key x, now)) F) (d_key d)) with (@None N) in Ht1.
      + split; [apply Hw; congruence|].
        apply (HT (d_key d)), last_att_some_in, Ht1.
      + symmetry. apply last_att_none. intros t Hin. apply Nd. apply in_map_iff in Hin.
        destruct Hin as (x & E & Hx). inversion E. apply in_map, Hx.
  Qed.

  (* the "two consecutive attempts for one key" reading of Spaced *)
  Lemma Spaced_consecutive L : Spaced L ->
    forall L1 k t1 n1 L2 t2 n2 L3,
      L = L1 ++ (k, t1, n1) :: L2 ++ (k, t2, n2) :: L3 ->
      (forall x, In x L2 -> fst (fst x) <> k) ->
      wait_for fw mw n2 <= t2 - t1 /\ t1 <= t2 /\ n2 <= ma.
  Proof.
    intros Sp L1 k t1 n1 L2 t2 n2 L3 E NK.
    destruct (Sp (L1 ++ (k, t1, n1) :: L2) k t2 n2 L3) as [Hn Hw].
    { rewrite E, <- app_assoc. reflexivity. }
    assert (X : last_att (map fst (L1 ++ (k, t1, n1) :: L2)) k = Some t1).
    { rewrite map_app, last_att_app. cbn [map fst snd last_att].
      replace (last_att (map fst L2) k) with (@None N); [rewrite key_eqb_refl; reflexivity|].
      symmetry. apply last_att_none. intros t Hin. apply in_map_iff in Hin. destruct Hin as (x & Ex & Hx).
      apply (NK x Hx). rewrite Ex. reflexivity. }
    destruct (Hw t1 X). auto.
  Qed.

  (* T bounds the logged times: the attempts of a step at a time >= T come after all of them (t1 <= t2 in Spaced) *)
  Definition GInv (s : st) (T : N) : Prop :=
    map fst (s_glog s) = b_attempts (s_book s) /\ Spaced (s_glog s) /\
    forall k t, In (k, t) (b_attempts (s_book s)) -> t <= T.

  (* only a step touches the two logs *)
  Lemma apply_ev_logs s e :
    (exists now, e = EStep now) \/
    (b_attempts (s_book (apply_ev s e)) = b_attempts (s_book s) /\ s_glog (apply_ev s e) = s_glog s).
  Proof.
    apply apply_ev_ind; cbn [s_book s_glog].
    - right. split; reflexivity.
    - intros now E. left. exists now. exact E.
    - intros k id ->. right. cbn [apply_ev s_book s_glog]. rewrite peer_connected_eq. split; reflexivity.
    - intros c p m _. right. rewrite hello_attempts. split; reflexivity.
    - intros l. right. destruct (peers_rest (s_book s) l) as [disc ->]. split; reflexivity.
    - intros c _. right. rewrite peer_disconnected_attempts. split; reflexivity.
  Qed.

  (* Only steps carry a time, and along a run these times must not decrease. *)
  Definition ev_time (T : N) (e : ev) : N := match e with EStep now => now | _ => T end.

  Fixpoint mono_from (T : N) (evs : list ev) : Prop :=
    match evs with
    | [] => True
    | e :: r => T <= ev_time T e /\ mono_from (ev_time T e) r
    end.

  Lemma step_GInv s now T :
    Inv (s_book s) -> LogInv (s_book s) -> T <= now -> GInv s T -> GInv (apply_ev s (EStep now)) now.
  Proof.
    intros (_ & NDd & _) (A & _) L (G1 & G2 & G3). split; [|split]; cbn [apply_ev s_glog s_book].
    - rewrite step_attempts_exact, map_app, G1, map_map. reflexivity.
    - apply Spaced_step; [exact G2 | apply NoDup_map_filter, NDd | |].
      + intros d Hd. apply filter_In in Hd. destruct Hd as [Hd Due]. rewrite G1.
        split; [apply (due_true _ _ _ Due) | apply A, Hd].
      + rewrite G1. intros k t Hin. exact (N.le_trans _ _ _ (G3 k t Hin) L).
    - intros k t Hin. destruct (step_attempts_only_due (s_book s) now (s_next s)) as (new & E & Hnew).
      rewrite E in Hin. apply in_app_iff in Hin. destruct Hin as [Hin|Hin].
      + exact (N.le_trans _ _ _ (G3 k t Hin) L).
      + rewrite (proj1 (Hnew k t Hin)). apply N.le_refl.
  Qed.

  Lemma apply_GInv s e T :
    Inv (s_book s) -> LogInv (s_book s) -> T <= ev_time T e -> GInv s T -> GInv (apply_ev s e) (ev_time T e).
  Proof.
    intros I H L G. destruct (apply_ev_logs s e) as [[now ->]|[E1 E2]]; [exact (step_GInv s now T I H L G)|].
    destruct G as (G1 & G2 & G3). unfold GInv. rewrite E1, E2. split; [exact G1 | split; [exact G2|]].
    intros k t Hin. exact (N.le_trans _ _ _ (G3 k t Hin) L).
  Qed.

  Definition RInv (s : st) (T : N) : Prop := SInv s /\ LogInv (s_book s) /\ GInv s T.

  Lemma RInv_init : RInv s_init 0.
  Proof.
    split; [exact SInv_init | split; [exact LogInv_empty|]]. split; [reflexivity | split; [|intros k t []]].
    intros P k t2 n2 S E. destruct P; discriminate.
  Qed.

  Lemma apply_RInv s e T :
    RInv s T -> ev_wf s e -> stale_ok e -> T <= ev_time T e -> RInv (apply_ev s e) (ev_time T e).
  Proof.
    intros (S & H & G) W St L. split; [apply apply_SInv; assumption | split].
    - apply apply_LogInv; assumption.
    - apply apply_GInv; [apply S | assumption..].
  Qed.

  Theorem run_from_RInv evs : forall s T,
    RInv s T -> wf_run s evs -> Forall stale_ok evs -> mono_from T evs -> exists T', RInv (run_from s evs) T'.
  Proof.
    unfold run_from. induction evs as [|e r IH]; intros s T R W St M; cbn [fold_left]; [exists T; exact R|].
    destruct W as [W1 W2]. destruct M as [M1 M2]. inversion St; subst.
    apply (IH _ (ev_time T e)); [apply apply_RInv; assumption | assumption | assumption | assumption].
  Qed.

  (* C19_backoff, trace level: along any run with non-decreasing step times, fresh connection identities, and no
     double disconnect of an OUTGOING connection object, the ghost log matches the attempt log and is Spaced
     (read by Spaced_consecutive: two consecutive attempts for one key are wait_for of the ban score apart). *)
  Corollary run_Spaced evs :
    mono_from 0 evs -> wf_run s_init evs -> Forall stale_ok evs ->
    map fst (s_glog (run evs)) = b_attempts (s_book (run evs)) /\ Spaced (s_glog (run evs)).
  Proof.
    intros M W St. destruct (run_from_RInv evs s_init 0 RInv_init W St M) as (T' & _ & _ & G1 & G2 & _).
    exact (conj G1 G2).
  Qed.

  (* the link between the log and the book that makes run_Spaced provable, exported *)
  Theorem C19_log_link evs :
    mono_from 0 evs -> wf_run s_init evs -> Forall stale_ok evs ->
    let b := s_book (run evs) in
    (forall d, In d (b_disc b) -> d_last d = last_att (b_attempts b) (d_key d)) /\
    (forall c, In c (b_conn b) -> c_last c = last_att (b_attempts b) (c_key c)) /\
    (forall k t, In (k, t) (b_attempts b) -> HasKey b k /\ k_dir k = Outgoing) /\
    (forall d, In d (b_disc b) -> k_dir (d_key d) = Outgoing).
  Proof. intros M W St. destruct (run_from_RInv evs s_init 0 RInv_init W St M) as (T' & _ & H & _). exact H. Qed.

  Lemma due_mine_false b now d :
    In (k_host (d_key d), k_port (d_key d)) (b_mine b) -> due fw mw ma b now d = false.
  Proof.
    intros H. destruct (due fw mw ma b now d) eqn:E; [|reflexivity].
    apply due_true in E. tauto.
  Qed.

  Lemma step_no_attempt_mine b now fresh k t :
    In (k_host k, k_port k) (b_mine b) ->
    In (k, t) (b_attempts (step fw mw ma b now fresh)) -> In (k, t) (b_attempts b).
  Proof.
    intros Hm Hin. destruct (step_attempts_only_due b now fresh) as (new & E & Hnew).
    rewrite E in Hin. apply in_app_iff in Hin. destruct Hin as [Hin|Hin]; [exact Hin|].
    destruct (Hnew k t Hin) as (_ & d & _ & <- & Due). rewrite due_mine_false in Due; [discriminate | exact Hm].
  Qed.

  Theorem C19_self b c p :
    In c (b_conn b) -> k_dir (c_key c) = Outgoing ->
    let b' := hello b c p true in
    In (k_host (c_key c), k_port (c_key c)) (b_mine b') /\
    find_conn (b_conn b') (c_key c) = None /\
    find_disc (b_disc b') (c_key c) = Some (mkD (c_key c) 0 (c_last c)) /\
    (forall now d, k_host (d_key d) = k_host (c_key c) -> k_port (d_key d) = k_port (c_key c) ->
                   due fw mw ma b' now d = false) /\
    (forall now fresh t, In (c_key c, t) (b_attempts (step fw mw ma b' now fresh)) -> In (c_key c, t) (b_attempts b')).
  Proof.
    intros Hc Dir b'. unfold b'. rewrite (hello_self_eq b c p Hc Dir). cbn [b_conn b_disc b_mine b_attempts].
    assert (Hm : In (k_host (c_key c), k_port (c_key c)) (b_mine b ++ [(k_host (c_key c), k_port (c_key c))]))
      by (apply in_snoc; right; reflexivity).
    split; [exact Hm|]. split; [|split; [|split]].
    - apply (tfind_none c_key). intros x Hx. apply (in_tdel c_key) in Hx. apply Hx.
    - exact (tfind_tset d_key _ (mkD (c_key c) 0 (c_last c))).
    - intros now d Eh Ep. apply due_mine_false. cbn [b_mine]. rewrite Eh, Ep. exact Hm.
    - intros now fresh t. apply step_no_attempt_mine. exact Hm.
  Qed.

  (* my_addresses only grows, so such a key is never attempted again in ANY continuation of the run *)
  Lemma apply_mine s e a : In a (b_mine (s_book s)) -> In a (b_mine (s_book (apply_ev s e))).
  Proof.
    intros H. apply apply_ev_ind; cbn [s_book].
    - exact H.
    - intros now ->. cbn [apply_ev s_book]. unfold step. rewrite step_disc_mine. exact H.
    - intros k id ->. cbn [apply_ev s_book]. rewrite peer_connected_eq. exact H.
    - intros c p m _. apply hello_mine, H.
    - intros l. destruct (peers_rest (s_book s) l) as [disc ->]. exact H.
    - intros c _. rewrite peer_disconnected_mine. exact H.
  Qed.

  Lemma apply_no_attempt_mine s e k t :
    In (k_host k, k_port k) (b_mine (s_book s)) ->
    In (k, t) (b_attempts (s_book (apply_ev s e))) -> In (k, t) (b_attempts (s_book s)).
  Proof.
    intros Hm. destruct (apply_ev_logs s e) as [[now ->]|[-> _]]; [|tauto].
    apply step_no_attempt_mine. exact Hm.
  Qed.

  Theorem C19_self_forever evs : forall s k t,
    In (k_host k, k_port k) (b_mine (s_book s)) ->
    In (k, t) (b_attempts (s_book (run_from s evs))) -> In (k, t) (b_attempts (s_book s)).
  Proof.
    unfold run_from. induction evs as [|e r IH]; intros s k t Hm Hin; cbn [fold_left] in Hin; [exact Hin|].
    apply (apply_no_attempt_mine s e k t Hm). apply (IH (apply_ev s e) k t); [apply apply_mine; exact Hm | exact Hin].
  Qed.
End Run.

(* the shipped constants (networking/params.py) *)
Definition FIRST_WAIT : N := 10.       (* TIME_TO_SECOND_CONNECTION_ATTEMPT *)
Definition MAX_WAIT : N := 1800.       (* MAX_TIME_BETWEEN_CONNECTION_ATTEMPTS *)
Definition MAX_ATTEMPTS : N := 2880.   (* MAX_CONNECTION_ATTEMPTS *)

Lemma wait_for_mono fw mw k1 k2 : k1 <= k2 -> wait_for fw mw k1 <= wait_for fw mw k2.
Proof.
  intros H. unfold wait_for. apply N.min_le_compat_r. apply N.mul_le_mono_l.
  apply N.pow_le_mono_r; [discriminate | exact H].
Qed.

Lemma wait_for_le_max fw mw k : wait_for fw mw k <= mw.
Proof. unfold wait_for. apply N.le_min_r. Qed.

Lemma wait_for_ge_first fw mw k : N.min fw mw <= wait_for fw mw k.
Proof.
  unfold wait_for. apply N.min_le_compat_r. rewrite <- (N.mul_1_r fw) at 1. apply N.mul_le_mono_l.
  change 1 with (2 ^ 0). apply N.pow_le_mono_r; [discriminate | apply N.le_0_l].
Qed.

(* 10 * 2^7 = 1280 < 1800 <= 2560 = 10 * 2^8 *)
Theorem wait_for_shipped :
  (forall k, wait_for FIRST_WAIT MAX_WAIT k = N.min (10 * 2 ^ k) 1800) /\
  (forall k1 k2, k1 <= k2 -> wait_for FIRST_WAIT MAX_WAIT k1 <= wait_for FIRST_WAIT MAX_WAIT k2) /\
  (forall k, 8 <= k -> wait_for FIRST_WAIT MAX_WAIT k = 1800) /\
  (forall k, k < 8 -> wait_for FIRST_WAIT MAX_WAIT k = 10 * 2 ^ k) /\
  map (wait_for FIRST_WAIT MAX_WAIT) [0;1;2;3;4;5;6;7;8] = [10;20;40;80;160;320;640;1280;1800] /\
  MAX_ATTEMPTS = 2880.
Proof.
  split; [reflexivity|]. split; [intros; apply wait_for_mono; assumption|]. split; [|split; [|split; reflexivity]].
  - intros k H. apply N.min_r. apply (N.pow_le_mono_r 2) in H; [|discriminate].
    change (2 ^ 8) with 256 in H. unfold FIRST_WAIT, MAX_WAIT. nia.
  - intros k H. apply N.min_l. apply N.lt_le_pred, (N.pow_le_mono_r 2) in H; [|discriminate].
    change (2 ^ N.pred 8) with 128 in H. unfold FIRST_WAIT, MAX_WAIT. nia.
Qed.

Theorem C19_file cap db p :
  (length (write_peers cap db p) <= cap)%nat /\
  ((0 < cap)%nat -> hd_error (write_peers cap db p) = Some p) /\
  (NoDup db -> NoDup (write_peers cap db p)) /\
  (forall n, cap = S n -> write_peers cap db p = p :: firstn n (filter (fun k => negb (key_eqb k p)) db)) /\
  (forall k, In k (write_peers cap db p) -> k = p \/ In k db).
Proof.
  unfold write_peers. split; [apply firstn_le_length|]. split; [|split; [|split]].
  - destruct cap; [lia|]. reflexivity.
  - intros ND. apply NoDup_firstn. constructor; [|apply NoDup_filter; exact ND].
    intros Hin. apply filter_In in Hin. destruct Hin as [_ H]. rewrite key_eqb_refl in H. discriminate.
  - intros n ->. reflexivity.
  - intros k Hin. assert (Hin' : In k (p :: filter (fun k => negb (key_eqb k p)) db)).
    { rewrite <- (firstn_skipn cap (p :: _)). apply in_or_app; left; exact Hin. }
    destruct Hin' as [->|H]; [left; reflexivity | right]. apply filter_In in H. apply H.
Qed.

Definition ex_kin : pkey := mkKey 1 5000 Incoming.    (* host 1 connecting to us *)
Definition ex_k1 : pkey := mkKey 1 2412 Outgoing.     (* host 1 (it is in fact ourselves) *)
Definition ex_k2 : pkey := mkKey 2 2412 Outgoing.     (* host 2 *)

(* duplicate incoming connect, hello (learn the reverse address), peers announcement, a step attempting both,
   a self-connection detected on the outgoing connection to host 1, host 2 dropping without hello, a double
   disconnect of the replaced incoming object, a step that is too early, and a later step that retries host 2 only *)
Definition ex_evs : list ev :=
  [EAccept ex_kin 100; EAccept ex_kin 101; EHello 101 2412 false; EPeers [(2, 2412)]; EStep 0;
   EHello 102 2412 true; EDisconnect 103; EDisconnectStale (accept_conn ex_kin 100); EStep 5; EStep 25].

Example C19_example_run :
  let s := run FIRST_WAIT MAX_WAIT MAX_ATTEMPTS ex_evs in
  sane (s_book s) = true /\
  b_conn (s_book s) = [mkConn ex_k2 106 false 1 (Some 25)] /\
  b_disc (s_book s) = [mkD ex_k1 0 (Some 0)] /\
  b_mine (s_book s) = [(1, 2412)] /\
  b_attempts (s_book s) = [(ex_k1, 0); (ex_k2, 0); (ex_k2, 25)] /\
  s_glog s = [(ex_k1, 0, 0); (ex_k2, 0, 0); (ex_k2, 25, 1)] /\
  (* intermediate: after the duplicate accept only the newer object is connected *)
  b_conn (s_book (run FIRST_WAIT MAX_WAIT MAX_ATTEMPTS (firstn 2 ex_evs))) = [accept_conn ex_kin 101] /\
  (* intermediate: the too-early step at time 5 attempts nothing *)
  b_attempts (s_book (run FIRST_WAIT MAX_WAIT MAX_ATTEMPTS (firstn 9 ex_evs))) = [(ex_k1, 0); (ex_k2, 0)].
Proof. vm_compute. repeat split. Qed.

Example C19_example_run_wf :
  mono_from 0 ex_evs /\ wf_run FIRST_WAIT MAX_WAIT MAX_ATTEMPTS (s_init) ex_evs /\ Forall stale_ok ex_evs.
Proof.
  split; [vm_compute; repeat split; discriminate|]. split.
  - cbn. repeat split; intros x Hx; cbn in Hx; repeat (destruct Hx as [<-|Hx]; [discriminate|]); contradiction.
  - repeat constructor.
Qed.

(* REFUTATION (model level): the trace-level back-off statement (run_Spaced) is FALSE if a connection object of an
   OUTGOING peer that was already disconnected is disconnected a second time after the peer has been re-attempted.
   The stale object (id 0: ban 0, last attempt 0) overwrites the entry of the live connection (last attempt 20), so
   the next step measures the waiting time from 0 instead of 20: attempts at 20 and 21 although wait_for 1 = 20. *)
Definition bad_evs : list ev :=
  [EPeers [(2, 2412)]; EStep 0; EDisconnect 0; EStep 20;
   EDisconnectStale (mkConn ex_k2 0 false 0 (Some 0));     (* exactly the object created at time 0 *)
   EStep 21].

Theorem C19_backoff_trace_refuted :
  mono_from 0 bad_evs /\ wf_run FIRST_WAIT MAX_WAIT MAX_ATTEMPTS s_init bad_evs /\
  let s := run FIRST_WAIT MAX_WAIT MAX_ATTEMPTS bad_evs in
  b_attempts (s_book s) = [(ex_k2, 0); (ex_k2, 20); (ex_k2, 21)] /\
  s_glog s = [(ex_k2, 0, 0); (ex_k2, 20, 1); (ex_k2, 21, 1)] /\
  21 - 20 < wait_for FIRST_WAIT MAX_WAIT 1 /\
  sane (s_book s) = true.
Proof.
  split; [vm_compute; repeat split; discriminate|]. split; [cbn; tauto|].
  vm_compute. repeat split.
Qed.

(* Why connection identities must be unique for the NoDup part of Inv (not for sanity): if two live connection
   objects had the same identity, `hello` (which looks the object up by identity) rewrites both entries. *)
Theorem C19_idclash_nodup_refuted :
  let s := run FIRST_WAIT MAX_WAIT MAX_ATTEMPTS
               [EAccept (mkKey 1 5000 Incoming) 7; EAccept (mkKey 2 5000 Incoming) 7; EHello 7 2412 false] in
  ~ NoDup (map c_key (b_conn (s_book s))) /\ sane (s_book s) = true.
Proof.
  split; [|vm_compute; reflexivity].
  vm_compute. intros H. inversion H as [|x l H1 H2]; subst. apply H1. left; reflexivity.
Qed.
