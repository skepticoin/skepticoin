(* C14 across head changes: the ledger view (holdings at the head) may be different at every request -- a spend was
   confirmed, a fork switch un-confirmed it, the caller went back to an older state -- while the wallet's used-set
   persists.  Inputs of successful spends are pairwise disjoint whatever the sequence of holdings. *)
From Coq Require Import NArith List Lia.
From SkV Require Import WalletModel WalletProofs.
Import ListNotations.
Open Scope N_scope.

Fixpoint run_spends_at (used : list N) (reqs : list (holdings * (N * N))) : list (option spend) :=
  match reqs with
  | [] => []
  | (h, (v, f)) :: rest =>
      match create_spend used h v f with
      | Some (sp, used') => Some sp :: run_spends_at used' rest
      | None => None :: run_spends_at used rest
      end
  end.

(* an unchanging ledger view is the special case *)
Lemma run_spends_const h reqs : forall used, run_spends used h reqs = run_spends_at used (map (pair h) reqs).
Proof.
  induction reqs as [|[v f] reqs IH]; intros used; [reflexivity|].
  cbn [run_spends run_spends_at map]. destruct (create_spend used h v f) as [[sp used']|]; rewrite IH; reflexivity.
Qed.

(* every spend avoids the used-set it starts from, and that contains the inputs of all earlier spends *)
Lemma run_spends_at_ordered reqs : forall used,
  (forall i sp r, nth_error (run_spends_at used reqs) i = Some (Some sp) -> In r (sp_inputs sp) -> ~ In r used) /\
  (forall i j sp1 sp2 r, (i < j)%nat ->
     nth_error (run_spends_at used reqs) i = Some (Some sp1) ->
     nth_error (run_spends_at used reqs) j = Some (Some sp2) ->
     In r (sp_inputs sp1) -> ~ In r (sp_inputs sp2)).
Proof.
  induction reqs as [|[h [v f]] reqs IH]; intros used; [split; intros [|i]; discriminate|].
  cbn [run_spends_at]. destruct (create_spend used h v f) as [[sp0 used0]|] eqn:E.
  - apply create_spend_fresh in E. destruct E as [-> Hf]. destruct (IH (used ++ sp_inputs sp0)) as [IH1 IH2]. split.
    + intros [|i] sp r; cbn [nth_error].
      * intros [= <-]. apply Hf.
      * intros Hi Hr Hu. apply (IH1 i sp r Hi Hr). apply in_or_app. left. exact Hu.
    + intros i [|j] sp1 sp2 r Hij; [lia|]. destruct i as [|i]; cbn [nth_error].
      * intros [= <-] Hj Hr1 Hr2. apply (IH1 j sp2 r Hj Hr2). apply in_or_app. right. exact Hr1.
      * apply IH2. lia.
  - destruct (IH used) as [IH1 IH2]. split.
    + intros [|i]; [discriminate|apply IH1].
    + intros i [|j] sp1 sp2 r Hij; [lia|]. destruct i as [|i]; [discriminate|]. apply IH2. lia.
Qed.

(* the variant that forgets used references which are not in the current holdings (pruning the record to the head)
   re-spends an input after a fork switch: confirmed at head 2, un-confirmed again at head 3
   (C14_pruned_record_reuses_after_fork_switch_refuted) *)
Definition create_spend_pruning (used : list N) (h : holdings) (value fee : N) : option (spend * list N) :=
  match create_spend used h value fee with
  | Some (sp, _) =>
      let kept := filter (fun r => existsb (N.eqb r) (map fst (all_refs h))) used in
      Some (sp, kept ++ sp_inputs sp)
  | None => None
  end.
