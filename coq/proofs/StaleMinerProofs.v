(* Finding J as a statement about the node model.  The found-block handler of the model (NodeModel.handle_mined) adds the
   found block to the CURRENT served state.  The shipped miner thread instead adds it to the snapshot of the served state
   it took at its last work request and installs the result: [handle_mined_snapshot].  When the network thread adopted
   blocks between the snapshot and the found block, those blocks vanish from the served state, and a found block of equal
   height displaces the earlier-arrived head.  With no adoption in between the two handlers agree. *)
From Coq Require Import NArith List.
From SkV Require Import NodeModel.
Import ListNotations.
Open Scope N_scope.

Section Stale.
  Variable tx_valid_at : N -> N -> bool.

  (* snapshot = (blocks, head) of the served state at the miner's last work request *)
  Definition handle_mined_snapshot (snap_blocks : list ablock) (snap_head : N) (s : nstate) (b : ablock) (valid : bool)
    : nstate * list out :=
    if negb valid then (s, [])
    else
      let blocks' := snap_blocks ++ [b] in
      let head' := new_head snap_blocks snap_head b in
      let s2 := set_state tx_valid_at s blocks' head' true in
      (mkNS (ns_blocks s2) (ns_head s2) (ns_valid_blocks s2) (ns_valid_head s2) (ns_pool s2) []
            (ns_rows s2 ++ ns_buffer s2 ++ [ab_id b]), [ORelayBlock (ab_id b)]).

  (* no adoption between the work request and the result: the shipped handler is the model's handler *)
  Theorem snapshot_current_agrees s b valid :
    handle_mined_snapshot (ns_blocks s) (ns_head s) s b valid = handle_mined tx_valid_at s b valid.
  Proof. reflexivity. Qed.

  (* the model's handler never loses a served block *)
  Theorem handle_mined_keeps_blocks s b valid s' o x :
    handle_mined tx_valid_at s b valid = (s', o) -> In x (ns_blocks s) -> In x (ns_blocks s').
  Proof.
    unfold handle_mined. destruct valid; cbn [negb]; intros [= <- _] Hx; [|exact Hx].
    apply in_or_app. now left.
  Qed.
End Stale.

(* the shipped behaviour: work request on head 1 | the network thread adopts block 2 (on 1) and serves it as head | the
   winning result for the candidate 3 (on 1, same height as 2) is handled on the snapshot: block 2 is gone from the served
   state and the served head is the later-arrived block 3 *)
Theorem stale_snapshot_drops_adopted_block_refuted :
  exists (tx_valid_at : N -> N -> bool) snap_blocks snap_head s b s' o adopted,
    In adopted (ns_blocks s) /\ ns_head s = ab_id adopted /\ ab_height adopted = ab_height b /\
    handle_mined_snapshot tx_valid_at snap_blocks snap_head s b true = (s', o) /\
    ~ In adopted (ns_blocks s') /\ ns_head s' = ab_id b.
Proof.
  exists (fun _ _ => true), [mkAB 1 0 1], 1,
         (mkNS [mkAB 1 0 1; mkAB 2 1 2] 2 [mkAB 1 0 1; mkAB 2 1 2] 2 [] [] [1; 2]),
         (mkAB 3 1 2).
  eexists. eexists. exists (mkAB 2 1 2).
  split; [cbn; auto|]. split; [reflexivity|]. split; [reflexivity|].
  split; [vm_compute; reflexivity|]. split.
  - cbn. intros [H|[H|H]]; try discriminate; exact H.
  - reflexivity.
Qed.

Print Assumptions snapshot_current_agrees.
Print Assumptions handle_mined_keeps_blocks.
Print Assumptions stale_snapshot_drops_adopted_block_refuted.
