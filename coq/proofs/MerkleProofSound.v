(* The inclusion proofs of merkletree.py (get_merkle_tree / get_proof): the explicit tree hashes to
   the level-by-level root, every proof built from it reproduces that commitment, and the proof for
   position i contains entry i of the list at index i.  The tree is built by the same pairing-up as
   the root, so the facts about [level] and [root_fuel] carry over; what is new is the invariant
   [span] on the indices, by which get_proof finds its way. *)
From Coq Require Import List Arith Lia.
From SkV Require Import Merkle MerkleProofs.
Import ListNotations.

Lemma combine_seq_nth {A} : forall (l : list A) lo i d, i < length l ->
  In (lo + i, nth i l d) (combine (seq lo (length l)) l).
Proof.
  induction l as [|x l IH]; intros lo i d Hi; [simpl in Hi; lia|].
  cbn [length seq combine]. destruct i as [|i].
  - left. rewrite Nat.add_0_r. reflexivity.
  - right. cbn [nth]. rewrite Nat.add_succ_r. apply (IH (S lo)). simpl in Hi. lia.
Qed.

(* _get_merkle_tree is get_merkle_root run on nodes: two subtrees are paired under a node that
   carries the index of the left one *)
Definition mknode {D} (a b : mtree D) : mtree D := MNode (mt_index a) a b.

Lemma level_t_level {D} (ts : list (mtree D)) : level_t ts = level mknode ts.
Proof. reflexivity. Qed.

Lemma tree_fuel_root_fuel {D} f (ts : list (mtree D)) : tree_fuel f ts = root_fuel mknode f ts.
Proof. reflexivity. Qed.

(* structural invariant: [span t lo hi] = the leaves of t, left to right, carry exactly the
   indices lo, lo+1, ..., hi-1, and every inner node carries the index of its leftmost leaf *)
Inductive span {D : Type} : mtree D -> nat -> nat -> Prop :=
| span_leaf i v : span (MLeaf i v) i (S i)
| span_node a b lo mid hi : span a lo mid -> span b mid hi -> span (MNode lo a b) lo hi.

(* a list of consecutive spans covering [lo, hi) *)
Fixpoint chain {D} (ts : list (mtree D)) (lo hi : nat) : Prop :=
  match ts with
  | [] => lo = hi
  | t :: ts => exists mid, span t lo mid /\ chain ts mid hi
  end.

Section Sound.
  Variable D : Type.
  Variable H2 : D -> D -> D.

  Lemma span_index (t : mtree D) lo hi : span t lo hi -> mt_index t = lo.
  Proof. intros Hs. destruct Hs; reflexivity. Qed.

  Lemma span_lt (t : mtree D) lo hi : span t lo hi -> lo < hi.
  Proof. intros Hs. induction Hs; lia. Qed.

  Lemma span_leaves_range (t : mtree D) lo hi :
    span t lo hi -> forall j v, In (j, v) (mt_leaves t) -> lo <= j < hi.
  Proof.
    intros Hs. induction Hs as [i w | a b lo mid hi Ha IHa Hb IHb]; intros j v Hin; cbn [mt_leaves] in Hin.
    - destruct Hin as [E | []]. injection E as <- _. lia.
    - apply span_lt in Ha as La. apply span_lt in Hb as Lb.
      apply in_app_or in Hin as [Hin | Hin].
      + apply IHa in Hin. lia.
      + apply IHb in Hin. lia.
  Qed.

  Lemma mknode_span (a b : mtree D) lo mid hi : span a lo mid -> span b mid hi -> span (mknode a b) lo hi.
  Proof. intros Ha Hb. unfold mknode. rewrite (span_index _ _ _ Ha). exact (span_node _ _ _ _ _ Ha Hb). Qed.

  Lemma level_chain (ts : list (mtree D)) : forall lo hi, chain ts lo hi -> chain (level mknode ts) lo hi.
  Proof.
    induction ts as [| |a b r IH] using pair_ind; intros lo hi Hc; [exact Hc..|].
    destruct Hc as (m1 & Ha & m2 & Hb & Hc). exists m2. split; [exact (mknode_span _ _ _ _ _ Ha Hb) | apply IH, Hc].
  Qed.

  Lemma leaves_from_length : forall (l : list D) i, length (leaves_from i l) = length l.
  Proof. induction l as [|x l IH]; intros i; cbn; [reflexivity | rewrite IH; reflexivity]. Qed.

  Lemma leaves_from_hash : forall (l : list D) i, map (mt_hash H2) (leaves_from i l) = l.
  Proof. induction l as [|x l IH]; intros i; cbn; [reflexivity | rewrite IH; reflexivity]. Qed.

  Lemma leaves_from_leaves : forall (l : list D) i,
    concat (map mt_leaves (leaves_from i l)) = combine (seq i (length l)) l.
  Proof. induction l as [|x l IH]; intros i; cbn; [reflexivity | rewrite IH; reflexivity]. Qed.

  Lemma leaves_from_chain : forall (l : list D) i, chain (leaves_from i l) i (i + length l).
  Proof.
    induction l as [|x l IH]; intros i; cbn [leaves_from length chain].
    - symmetry. apply Nat.add_0_r.
    - exists (S i). split; [apply span_leaf|]. rewrite Nat.add_succ_r. apply IH.
  Qed.

  Theorem tree_exists (l : list D) : l <> [] -> exists t, tree l = Some t.
  Proof.
    intros Hne. unfold tree. rewrite tree_fuel_root_fuel. apply root_fuel_enough.
    - destruct l; [congruence | discriminate].
    - rewrite leaves_from_length. lia.
  Qed.

  (* get_merkle_tree(l).hash() is get_merkle_root(l) *)
  Lemma tree_root (l : list D) : root H2 l = option_map (mt_hash H2) (tree l).
  Proof.
    unfold root, tree. rewrite tree_fuel_root_fuel.
    rewrite <- (root_fuel_map mknode H2 (mt_hash H2) (fun _ _ => eq_refl)), leaves_from_hash. reflexivity.
  Qed.

  Lemma tree_span (l : list D) t : tree l = Some t -> span t 0 (length l).
  Proof.
    intros Ht. unfold tree in Ht. rewrite tree_fuel_root_fuel in Ht.
    apply (root_fuel_ind mknode (fun ts => chain ts 0 (length l)) (fun ts => level_chain ts _ _)) in Ht.
    - cbn [chain] in Ht. destruct Ht as (m & Hs & <-). exact Hs.
    - apply (leaves_from_chain l 0).
  Qed.

  Lemma tree_leaves (l : list D) t : tree l = Some t -> mt_leaves t = combine (seq 0 (length l)) l.
  Proof.
    intros Ht. unfold tree in Ht. rewrite tree_fuel_root_fuel in Ht.
    rewrite (root_fuel_concat mknode mt_leaves (fun _ _ => eq_refl) _ _ _ Ht).
    apply leaves_from_leaves.
  Qed.

  Theorem proof_hash : forall (t : mtree D) i, mt_hash H2 (get_proof H2 t i) = mt_hash H2 t.
  Proof.
    induction t as [j v | idx a IHa b IHb]; intros i; [reflexivity|].
    cbn [get_proof]. destruct (mt_index b <=? i); cbn [mt_hash]; [rewrite IHb | rewrite IHa]; reflexivity.
  Qed.

  (* get_proof descends towards the leaf with index i: the index of the right child separates the two spans *)
  Lemma get_proof_keeps (t : mtree D) lo hi : span t lo hi ->
    forall i v, In (i, v) (mt_leaves t) -> In (i, v) (mt_leaves (get_proof H2 t i)).
  Proof.
    intros Hs. induction Hs as [j w | a b lo mid hi Ha IHa Hb IHb]; intros i v Hin; [exact Hin|].
    cbn [get_proof]. rewrite (span_index _ _ _ Hb).
    cbn [mt_leaves] in Hin. apply in_app_or in Hin as [Hin | Hin].
    - pose proof (span_leaves_range _ _ _ Ha _ _ Hin) as [_ R].
      rewrite (proj2 (Nat.leb_gt mid i) R). cbn [mt_leaves]. apply in_or_app. left. apply IHa, Hin.
    - pose proof (span_leaves_range _ _ _ Hb _ _ Hin) as [R _].
      rewrite (proj2 (Nat.leb_le mid i) R). cbn [mt_leaves]. apply in_or_app. right. apply IHb, Hin.
  Qed.

  Theorem proof_contains (l : list D) t i d : tree l = Some t -> i < length l ->
    In (i, nth i l d) (mt_leaves (get_proof H2 t i)).
  Proof.
    intros Ht Hi. eapply get_proof_keeps; [apply tree_span; exact Ht|].
    rewrite (tree_leaves l t Ht). apply (combine_seq_nth l 0 i d Hi).
  Qed.

  Theorem proof_sound : forall (l : list D) (t : mtree D) (i : nat) (d : D),
    tree l = Some t -> i < length l ->
    root H2 l = Some (mt_hash H2 (get_proof H2 t i)) /\
    In (i, nth i l d) (mt_leaves (get_proof H2 t i)).
  Proof.
    intros l t i d Ht Hi. split.
    - rewrite proof_hash, tree_root, Ht. reflexivity.
    - apply proof_contains; assumption.
  Qed.
End Sound.

(* non-vacuity: a concrete 5-element list, i = 4 (the promoted odd element) *)
Definition exH (a b : nat) : nat := a * 10 + b.
Definition exL : list nat := [1; 2; 3; 4; 5].

Example ex_tree_some : exists t, tree exL = Some t.
Proof. eexists. reflexivity. Qed.

Example ex_proof_sound_4 :
  match tree exL with
  | Some t =>
      root exH exL = Some (mt_hash exH (get_proof exH t 4)) /\
      mt_leaves (get_proof exH t 4) = [(0, 154); (4, 5)] /\
      In (4, nth 4 exL 0) (mt_leaves (get_proof exH t 4))
  | None => False
  end.
Proof. split; [reflexivity | split; [reflexivity | right; left; reflexivity]]. Qed.

Example ex_proof_sound_4_via_thm : forall t, tree exL = Some t ->
  root exH exL = Some (mt_hash exH (get_proof exH t 4)) /\
  In (4, 5) (mt_leaves (get_proof exH t 4)).
Proof. intros t Ht. apply (proof_sound nat exH exL t 4 0 Ht), le_n. Qed.

