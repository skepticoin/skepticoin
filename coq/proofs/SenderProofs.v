(* The sending side of the stream framing (networking/remote_peer.py ConnectedRemotePeer.send_message:
   MAGIC + struct.pack(">I", len(data)) + data, appended to the connection's send buffer) composed with the receiver
   of model/Framing.v: whatever sequence of payloads one side sends, and however the transport cuts the resulting
   byte stream into reads, the other side's MessageReceiver hands exactly that sequence of payloads to
   handle_message_data, raises nothing, and is left in a state that stands for no pending byte.

   The second half is the sender's state machine (send_buffer, send_backlog, writability): under every interleaving
   of send_message calls and socket writes, what the socket has taken is a prefix of that stream ([sender_invariant]).

   Side conditions, both necessary: a payload longer than MAX_MESSAGE_SIZE is refused by the receiver (TooLong,
   [parse_send_frame]); a length >= 2^32 cannot be packed by the sender (struct.error in the implementation). *)
From Coq Require Import NArith List Lia Arith ZifyBool.
From SkV Require Import Bytes Framing BytesProofs ListFacts FramingProofs.
Import ListNotations.
Open Scope N_scope.

Definition sendable (max : N) (p : bytes) : Prop :=
  bytes_wf p /\ N.of_nat (length p) <= max /\ N.of_nat (length p) < 2 ^ 32.

Lemma send_frame_wf p : bytes_wf p -> bytes_wf (send_frame p).
Proof.
  intros H. unfold send_frame. apply bytes_wf_app. split; [apply MAGIC_wf|].
  apply bytes_wf_app. split; [apply be_enc_wf | exact H].
Qed.

Lemma send_stream_cons p ps : send_stream (p :: ps) = send_frame p ++ send_stream ps.
Proof. reflexivity. Qed.

Lemma send_stream_wf ps : Forall bytes_wf ps -> bytes_wf (send_stream ps).
Proof.
  induction 1 as [|p ps Hp _ IH]; [constructor|].
  rewrite send_stream_cons. apply bytes_wf_app. split; [apply send_frame_wf, Hp | exact IH].
Qed.

Lemma send_stream_snoc ps p : send_stream (ps ++ [p]) = send_stream ps ++ send_frame p.
Proof. unfold send_stream. rewrite map_app, concat_app. cbn [map concat]. rewrite app_nil_r. reflexivity. Qed.

Lemma send_frame_nonempty p : send_frame p <> [].
Proof. unfold send_frame, MAGIC. discriminate. Qed.

Section Sender.
  Variable max : N.

  (* what the grammar makes of one sent frame, whatever follows it *)
  Lemma parse_send_frame p b : N.of_nat (length p) < 2 ^ 32 ->
    parse_stream max (send_frame p ++ b) =
      if max <? N.of_nat (length p) then ([], Some TooLong, send_frame p ++ b)
      else let '(fs, e, rest) := parse_stream max b in (p :: fs, e, rest).
  Proof.
    intros H32. unfold send_frame. rewrite <- !app_assoc.
    rewrite parse_hdr by apply be_enc_length.
    rewrite be_dec_enc by (rewrite pow256_4; exact H32).
    destruct (max <? N.of_nat (length p)); [reflexivity|]. rewrite Nat2N.id.
    replace (length (p ++ b) <? length p)%nat with false by (rewrite app_length; lia).
    rewrite skipn_app_le, firstn_app_le, skipn_all, firstn_all by apply le_n. reflexivity.
  Qed.

  (* a complete stream followed by a partial next frame: the complete ones are delivered, nothing is refused *)
  Theorem parse_send_stream_app ps tail : Forall (sendable max) ps ->
    parse_stream max (send_stream ps ++ tail) =
      let '(fs, e, rest) := parse_stream max tail in (ps ++ fs, e, rest).
  Proof.
    induction 1 as [|p ps (_ & Hmax & H32) _ IH].
    - change (send_stream [] ++ tail) with tail. destruct (parse_stream max tail) as [[fs e] r]. reflexivity.
    - rewrite send_stream_cons, <- app_assoc, parse_send_frame by exact H32.
      replace (max <? N.of_nat (length p)) with false by lia.
      rewrite IH. destruct (parse_stream max tail) as [[fs e] r]. reflexivity.
  Qed.

  Theorem parse_send_stream ps : Forall (sendable max) ps ->
    parse_stream max (send_stream ps) = (ps, None, []).
  Proof.
    intros H. rewrite <- (app_nil_r (send_stream ps)), parse_send_stream_app by exact H.
    cbn. rewrite app_nil_r. reflexivity.
  Qed.

  (* end to end, for EVERY fragmentation of the sent stream into reads *)
  Theorem send_receive ps chunks : Forall (sendable max) ps -> Forall bytes_wf chunks ->
    concat chunks = send_stream ps ->
    fst (fst (feed max r_init chunks)) = ps /\
    snd (fst (feed max r_init chunks)) = None /\
    pending (snd (feed max r_init chunks)) = [].
  Proof.
    intros Hps Hch Hc. destruct (feed_init max chunks Hch) as [E P].
    rewrite Hc, (parse_send_stream ps Hps) in *. rewrite E in *. auto.
  Qed.

  (* every PREFIX of the sent stream (the connection so far): a prefix of the payloads has been delivered, in order,
     nothing refused *)
  Theorem send_receive_prefix ps chunks later : Forall (sendable max) ps -> Forall bytes_wf chunks ->
    concat chunks ++ later = send_stream ps ->
    snd (fst (feed max r_init chunks)) = None /\
    exists more, fst (fst (feed max r_init chunks)) ++ more = ps.
  Proof.
    intros Hps Hch Hc. destruct (feed_init max chunks Hch) as [-> _].
    pose proof (parse_app_eq max (concat chunks) later) as A. rewrite Hc, (parse_send_stream ps Hps) in A.
    destruct (parse_stream max (concat chunks)) as [[fs [err|]] rest]; [discriminate A|].
    destruct (parse_stream max (rest ++ later)) as [[fs2 e2] r2]. injection A as A _ _.
    split; [reflexivity|]. exists fs2. symmetry. exact A.
  Qed.
End Sender.

Record SInv (st : sstate) (sent : list bytes) : Prop := {
  si_stream : s_written st ++ s_buf st ++ concat (s_backlog st) = send_stream sent;
  si_nobuf : s_buf st = [] -> s_backlog st = [];
  si_writing : s_buf st <> [] -> s_writing st = true;
  si_backlog : Forall (fun x => x <> []) (s_backlog st) }.

Lemma SInv_init : SInv s_init [].
Proof. constructor; cbn; auto; congruence. Qed.

(* In both steps the stream field is settled before the model's case analysis: [s_send] appends the frame to
   written ++ buffer ++ backlog and [s_can_send] only moves the cut between written and buffer, wherever a backlog entry
   is promoted to the buffer.  The cases then only concern the other three fields. *)
Lemma SInv_send st sent p : SInv st sent -> SInv (s_send st p) (sent ++ [p]).
Proof.
  intros [H1 H2 H3 H4].
  assert (Hs : s_written st ++ s_buf st ++ concat (s_backlog st ++ [send_frame p]) = send_stream (sent ++ [p])).
  { rewrite send_stream_snoc, <- H1, concat_app. cbn [concat]. rewrite app_nil_r, <- !app_assoc. reflexivity. }
  unfold s_send. destruct (s_buf st) as [|b0 bs].
  - rewrite (H2 eq_refl) in *. constructor; [exact Hs | reflexivity | reflexivity | constructor].
  - constructor; [exact Hs | discriminate | intros _; apply H3; discriminate|].
    apply Forall_app. split; [exact H4|]. constructor; [apply send_frame_nonempty|constructor].
Qed.

Lemma SInv_can_send st sent n : SInv st sent -> SInv (s_can_send st n) sent.
Proof.
  intros [H1 H2 H3 H4]. unfold s_can_send. set (k := Nat.min n (length (s_buf st))).
  rewrite <- (firstn_skipn k (s_buf st)), <- app_assoc, app_assoc in H1.
  assert (Hb : skipn k (s_buf st) <> [] -> s_buf st <> []).
  { intros Hs E. rewrite E, skipn_nil in Hs. exact (Hs eq_refl). }
  destruct (skipn k (s_buf st)) as [|c cs]; [destruct H4 as [|x rest Hx Hr]|].
  - (* everything is written *)
    constructor; [exact H1 | reflexivity | intros E; destruct (E eq_refl) | constructor].
  - (* the buffer is written out and the next backlog entry takes its place *)
    constructor; [exact H1 | intros E; destruct (Hx E) | intros _; apply H3; intros E; discriminate (H2 E) | exact Hr].
  - (* part of the buffer is left *)
    constructor; [exact H1 | discriminate | intros _; apply H3, Hb; discriminate | exact H4].
Qed.

Lemma SInv_run_gen ops : forall st sent, SInv st sent -> SInv (fold_left s_step ops st) (sent ++ sent_of ops).
Proof.
  induction ops as [|o ops IH]; intros st sent H; cbn [fold_left sent_of].
  - rewrite app_nil_r. exact H.
  - destruct o as [p|n]; cbn [s_step].
    + change (p :: sent_of ops) with ([p] ++ sent_of ops). rewrite app_assoc. apply IH, SInv_send, H.
    + apply IH, SInv_can_send, H.
Qed.

(* every reachable sender state, for every interleaving of send_message calls and socket writes of any sizes *)
Theorem sender_invariant ops : SInv (s_run ops) (sent_of ops).
Proof. apply (SInv_run_gen ops s_init [] SInv_init). Qed.

(* once the sender no longer asks for writability, everything sent has been written *)
Theorem sender_drained ops : s_writing (s_run ops) = false ->
  s_written (s_run ops) = send_stream (sent_of ops) /\ s_buf (s_run ops) = [] /\ s_backlog (s_run ops) = [].
Proof.
  destruct (sender_invariant ops) as [H1 H2 H3 _]. intros Hw.
  destruct (s_buf (s_run ops)) as [|b bs].
  - rewrite (H2 eq_refl) in *. cbn [concat app] in H1. rewrite app_nil_r in H1. auto.
  - rewrite H3 in Hw by discriminate. discriminate Hw.
Qed.

(* one sock.send takes min n |buffer| bytes, so a socket that accepts at least one byte moves the written stream forward
   whenever anything is queued.  How many writes draining needs is not stated as a theorem. *)
Lemma s_can_send_written st n :
  s_written (s_can_send st n) = s_written st ++ firstn (Nat.min n (length (s_buf st))) (s_buf st).
Proof. unfold s_can_send. destruct (skipn _ (s_buf st)); [destruct (s_backlog st)|]; reflexivity. Qed.

Theorem s_can_send_progress st n : (1 <= n)%nat -> s_buf st <> [] ->
  (length (s_written st) < length (s_written (s_can_send st n)))%nat.
Proof.
  intros Hn Hb. rewrite s_can_send_written, app_length, firstn_length.
  destruct (s_buf st); [congruence | cbn [length]; lia].
Qed.

(* sender state machine and receiver composed: however send_message calls and socket writes interleave, and however
   the transport re-cuts what was written, the other side has received a prefix of the messages sent, in order,
   and has refused nothing; once the sender has stopped asking for writability, [sender_drained] and [send_receive]
   give all of them *)
Theorem sender_receiver_prefix max ops chunks : Forall (sendable max) (sent_of ops) -> Forall bytes_wf chunks ->
  concat chunks = s_written (s_run ops) ->
  snd (fst (feed max r_init chunks)) = None /\
  exists more, fst (fst (feed max r_init chunks)) ++ more = sent_of ops.
Proof.
  intros Hs Hc E. destruct (sender_invariant ops) as [Hl _ _ _]. rewrite <- E in Hl.
  exact (send_receive_prefix max (sent_of ops) chunks _ Hs Hc Hl).
Qed.

(* the premises are satisfiable, and the model computes *)
Example send_receive_example :
  feed 100 r_init [[77;65]; [74;73;0;0;0;3;1;2]; [3;77;65;74;73;0;0;0;2;9;8]] = ([[1;2;3];[9;8]], None, r_init)
  /\ send_stream [[1;2;3];[9;8]] = concat [[77;65]; [74;73;0;0;0;3;1;2]; [3;77;65;74;73;0;0;0;2;9;8]].
Proof. split; vm_compute; reflexivity. Qed.

Example sender_example :
  let st := s_run [OSend [1;2]; OSend [3]; OCanSend 3; OSend []; OCanSend 100; OCanSend 4; OCanSend 9; OCanSend 8] in
  s_writing st = false /\ s_written st = send_stream [[1;2]; [3]; []].
Proof. vm_compute. split; reflexivity. Qed.
