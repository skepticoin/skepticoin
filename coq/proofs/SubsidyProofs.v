(* The halving schedule of Subsidy.v: its value, that it only falls, where it ends, and its total.
   The total is taken era by era, the subsidy being constant on each era of [interval] heights. *)
From Coq Require Import ZArith Lia.
From SkV Require Import Subsidy.
Open Scope Z_scope.

Lemma sum_upto_ext f g n : (forall x, 0 <= x < Z.of_nat n -> f x = g x) -> sum_upto f n = sum_upto g n.
Proof.
  intros H. induction n as [|n IH]; cbn [sum_upto]; [reflexivity|].
  rewrite IH by (intros x Hx; apply H; lia). rewrite H by lia. reflexivity.
Qed.

Lemma sum_upto_app f n m : sum_upto f (n + m) = sum_upto f n + sum_upto (fun x => f (Z.of_nat n + x)) m.
Proof.
  induction m as [|m IH]; cbn [sum_upto].
  - rewrite Nat.add_0_r. lia.
  - rewrite Nat.add_succ_r. cbn [sum_upto]. rewrite IH. rewrite Nat2Z.inj_add. lia.
Qed.

Lemma sum_upto_const f c n : (forall x, 0 <= x < Z.of_nat n -> f x = c) -> sum_upto f n = Z.of_nat n * c.
Proof.
  induction n as [|n IH]; intros Hf; cbn [sum_upto]; [lia|].
  rewrite IH by (intros x Hx; apply Hf; lia). rewrite (Hf (Z.of_nat n)) by lia. lia.
Qed.

(* once f is exhausted the running total no longer moves *)
Lemma sum_upto_zero_tail f n m : (n <= m)%nat -> (forall x, Z.of_nat n <= x -> f x = 0) -> sum_upto f m = sum_upto f n.
Proof.
  intros Hnm Hz. induction Hnm as [|m Hnm IH]; [reflexivity|].
  cbn [sum_upto]. rewrite IH, Hz by lia. lia.
Qed.

Lemma sum_upto_mono f n m : (forall x, 0 <= x -> 0 <= f x) -> (n <= m)%nat -> sum_upto f n <= sum_upto f m.
Proof.
  intros Hf Hnm. induction Hnm as [|m Hnm IH]; [lia|].
  cbn [sum_upto]. pose proof (Hf (Z.of_nat m)). lia.
Qed.

(* a function that is constant on each era of i heights, summed over n whole eras *)
Lemma sum_upto_eras f c i n : 0 < i ->
  (forall k r, 0 <= k < Z.of_nat n -> 0 <= r < i -> f (k * i + r) = c k) ->
  sum_upto f (n * Z.to_nat i) = i * sum_upto c n.
Proof.
  intros Hi. induction n as [|n IH]; intros Hf; cbn [Nat.mul sum_upto]; [lia|].
  rewrite Nat.add_comm, sum_upto_app, IH by (intros; apply Hf; lia).
  rewrite Z.mul_add_distr_l. f_equal. rewrite (sum_upto_const _ (c (Z.of_nat n))).
  - rewrite Z2Nat.id by lia. reflexivity.
  - intros r Hr. rewrite Nat2Z.inj_mul, Z2Nat.id by lia. apply Hf; lia.
Qed.

Section Sub.
  Variables interval initial : Z.
  Hypothesis Hint : 0 < interval.
  Hypothesis Hini : 0 <= initial.
  Hypothesis Hsmall : initial < 2 ^ 64.
  Notation sub := (subsidy interval initial).

  (* the `>= 64` cut-off is invisible: the plain halving formula already gives 0 there *)
  Lemma subsidy_value h : sub h = initial / 2 ^ (h / interval).
  Proof.
    unfold subsidy. destruct (h / interval >=? 64) eqn:E; [|reflexivity].
    symmetry. apply Z.div_small. split; [exact Hini|].
    eapply Z.lt_le_trans; [exact Hsmall|]. apply Z.pow_le_mono_r; lia.
  Qed.

  Lemma subsidy_nonneg h : 0 <= h -> 0 <= sub h.
  (* neither 0 < interval nor 0 <= h is used: the lemma is stated with the hypotheses its callers have *)
  Proof using Hint Hini Hsmall.
    intros _. rewrite subsidy_value. apply Z_div_nonneg_nonneg; [exact Hini|]. apply Z.pow_nonneg. lia.
  Qed.

  Lemma subsidy_antitone h1 h2 : 0 <= h1 <= h2 -> sub h2 <= sub h1.
  Proof.
    intros [H1 H2]. rewrite !subsidy_value.
    assert (Hq : 0 <= h1 / interval <= h2 / interval).
    { split; [apply Z.div_pos; lia | apply Z.div_le_mono; lia]. }
    apply Z.div_le_compat_l; [exact Hini|]. split.
    - apply Z.pow_pos_nonneg; lia.
    - apply Z.pow_le_mono_r; lia.
  Qed.

  (* era k is the first without subsidy as soon as initial < 2^k ... *)
  Lemma subsidy_zero_from k h : initial < 2 ^ k -> k * interval <= h -> sub h = 0.
  Proof.
    intros Hlt Hh. rewrite subsidy_value.
    apply Z.div_small. split; [exact Hini|]. eapply Z.lt_le_trans; [exact Hlt|].
    apply Z.pow_le_mono_r; [lia|]. apply Z.div_le_lower_bound; lia.
  Qed.

  (* ... and era k still has one as long as 2^k <= initial *)
  Lemma subsidy_positive_before k h : 2 ^ k <= initial -> 0 <= h < (k + 1) * interval -> 0 < sub h.
  Proof.
    intros Hle Hh. rewrite subsidy_value.
    assert (Hq : 0 <= h / interval <= k).
    { split; [apply Z.div_pos; lia|]. enough (h / interval < k + 1) by lia. apply Z.div_lt_upper_bound; lia. }
    apply Z.div_str_pos. split; [apply Z.pow_pos_nonneg; lia|].
    transitivity (2 ^ k); [apply Z.pow_le_mono_r; lia | exact Hle].
  Qed.

  Lemma subsidy_in_era k r : 0 <= r < interval -> sub (k * interval + r) = initial / 2 ^ k.
  Proof.
    intros Hr. rewrite subsidy_value, <- (Z.div_unique _ interval k r) by lia. reflexivity.
  Qed.

  (* k eras exhaust the subsidy; the total is then the k era values, each paid interval times *)
  Lemma subsidy_total k n : initial < 2 ^ Z.of_nat k -> Z.of_nat k * interval <= Z.of_nat n ->
    sum_upto sub n = interval * sum_upto (fun e => initial / 2 ^ e) k.
  Proof.
    intros Hlt Hn. rewrite (sum_upto_zero_tail _ (k * Z.to_nat interval) n).
    - apply sum_upto_eras; [exact Hint|]. intros e r _ Hr. apply subsidy_in_era, Hr.
    - lia.
    - intros x Hx. apply (subsidy_zero_from (Z.of_nat k)); lia.
  Qed.
End Sub.
