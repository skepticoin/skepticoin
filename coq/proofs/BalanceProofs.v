(* Per-key balances are exactly the unspent set grouped by key ([consistent]), std++ style.
   [consistent_delete] and [consistent_insert] are the two single steps; [tx_ok], [txs_ok], [block_ok] carry them
   through a block, given that the unspent-set update went through and the created keys are fresh; the chain theorem
   is [balances_consistent_fresh_only], with [balances_consistent] its corollary for well-formed chains.
   [uto_apply_block_succeeds] and [replay_total]: premises (a)+(b) of [wf_block] are what makes the replay succeed;
   [fresh_block_wf] and [fresh_replay_wf]: under freshness a replay that succeeded forces them.
   Non-vacuity: [Example.example_wf], [Example.example_balances]; [Example.freshness_needed]: freshness cannot be
   dropped (a colliding hash gives wrong balances). *)
From stdpp Require Import gmap.
From Coq Require Import ZArith NArith Lia.
From SkV Require Import Bytes Codec Ledger.

Lemma Forall_elem_of {A} {P : A → Prop} {l} : Forall P l → ∀ x, x ∈ l → P x.
Proof. apply Forall_forall. Qed.

Lemma filter_all_id {A} (P : A → Prop) `{∀ x, Decision (P x)} (l : list A) :
  Forall P l → filter P l = l.
Proof.
  induction 1 as [|x l Hx Hl IH]; [done|].
  rewrite filter_cons, decide_True by done. by rewrite IH.
Qed.

(* total value of a list of (reference, output) pairs *)
Definition sumv (l : list (refkey * output)) : Z :=
  foldr (λ ro acc, (Z.of_N (out_value ro.2) + acc)%Z) 0%Z l.

Lemma sumv_perm l1 l2 : l1 ≡ₚ l2 → sumv l1 = sumv l2.
Proof. induction 1; unfold sumv in *; cbn [foldr]; lia. Qed.

Lemma sumv_cons r o l : sumv ((r, o) :: l) = (Z.of_N (out_value o) + sumv l)%Z.
Proof. done. Qed.

(* the unspent outputs paying key [pk] *)
Definition pays (pk : bytes) (u : utxo) : list (refkey * output) :=
  filter (λ ro, out_pk ro.2 = pk) (map_to_list u).

Definition consistent (u : utxo) (p : pkbal) : Prop :=
  (∀ pk v refs, p !! pk = Some (v, refs) →
     v = sumv (pays pk u) ∧ refs ≡ₚ (pays pk u).*1)
  ∧ (∀ r o, u !! r = Some o → is_Some (p !! out_pk o)).

Lemma pays_elem pk u r o : (r, o) ∈ pays pk u ↔ u !! r = Some o ∧ out_pk o = pk.
Proof.
  unfold pays. rewrite elem_of_list_filter. cbn [snd].
  split; [intros [? ?%elem_of_map_to_list]|intros [?%elem_of_map_to_list ?]]; done.
Qed.

Lemma pays_keys_NoDup pk u : NoDup (pays pk u).*1.
Proof.
  apply NoDup_fmap_fst; [|apply NoDup_filter, NoDup_map_to_list].
  intros r o1 o2 [H1 _]%pays_elem [H2 _]%pays_elem. congruence.
Qed.

Lemma pays_key_elem pk u r : r ∈ (pays pk u).*1 → is_Some (u !! r).
Proof.
  intros Hin. apply elem_of_list_fmap in Hin as [[r' o] [Heq Hin]]. cbn [fst] in Heq. subst r'.
  apply pays_elem in Hin as [Hl _]. by exists o.
Qed.

Lemma pays_insert pk u k o :
  u !! k = None →
  pays pk (<[k:=o]> u) ≡ₚ if decide (out_pk o = pk) then (k, o) :: pays pk u else pays pk u.
Proof.
  intros Hk. unfold pays. rewrite (map_to_list_insert u k o Hk), filter_cons. cbn [snd].
  by destruct (decide (out_pk o = pk)).
Qed.

Lemma pays_delete pk u k o :
  u !! k = Some o →
  pays pk u ≡ₚ if decide (out_pk o = pk) then (k, o) :: pays pk (delete k u) else pays pk (delete k u).
Proof.
  intros Hk. pose proof (pays_insert pk (delete k u) k o (lookup_delete u k)) as HP.
  by rewrite (insert_delete u k o Hk) in HP.
Qed.

(* [utxo] and [pkbal] are constants hiding [gmap _ _]; rewriting with the finite-map lemmas needs them unfolded *)
Local Ltac unf := unfold utxo, pkbal in *.

Lemma consistent_NoDup u p pk v refs : consistent u p → p !! pk = Some (v, refs) → NoDup refs.
Proof.
  intros [H1 _] Hp. destruct (H1 _ _ _ Hp) as [_ Hrefs].
  rewrite Hrefs. apply pays_keys_NoDup.
Qed.

Lemma consistent_absent u p pk : consistent u p → p !! pk = None → pays pk u = [].
Proof.
  intros [_ H2] Hp. destruct (pays pk u) as [|[r o] l] eqn:E; [done|].
  assert (Hin : (r, o) ∈ pays pk u) by (rewrite E; left).
  apply pays_elem in Hin as [Hl <-]. apply H2 in Hl. rewrite Hp in Hl. by destruct Hl.
Qed.

Lemma consistent_default u p pk v refs :
  consistent u p → default (0%Z, []) (p !! pk) = (v, refs) →
  v = sumv (pays pk u) ∧ refs ≡ₚ (pays pk u).*1.
Proof.
  intros Hc Hd. destruct (p !! pk) as [[v' refs']|] eqn:Hp; cbn [default] in Hd.
  - injection Hd as -> ->. by apply (proj1 Hc).
  - injection Hd as <- <-. by rewrite (consistent_absent _ _ _ Hc Hp).
Qed.

Lemma consistent_empty : consistent ∅ ∅.
Proof. split; [intros pk v refs H|intros r o H]; unf; by rewrite lookup_empty in H. Qed.

(* Both single steps change the unspent set at one reference, whose output pays [pk0], and set the entry of [pk0]:
   the outputs paying any other key stay the same, so only the new entry has to be checked. *)
Lemma consistent_set u u' p pk0 v' refs' :
  consistent u p →
  (∀ pk, pk ≠ pk0 → pays pk u' ≡ₚ pays pk u) →
  (∀ r o, u' !! r = Some o → out_pk o = pk0 ∨ u !! r = Some o) →
  v' = sumv (pays pk0 u') → refs' ≡ₚ (pays pk0 u').*1 →
  consistent u' (<[pk0 := (v', refs')]> p).
Proof.
  intros [H1 H2] Hoth Hdom Hv Hrefs. split.
  - intros pk v refs Hl. unf. apply lookup_insert_Some in Hl as [[<- [= <- <-]]|[Hne Hl]]; [done|].
    destruct (H1 _ _ _ Hl) as [-> ->]. pose proof (Hoth pk (not_eq_sym Hne)) as HP.
    split; [symmetry; by apply sumv_perm | by rewrite HP].
  - intros r o Hl. unf. apply lookup_insert_is_Some'.
    destruct (Hdom _ _ Hl) as [->|Hl']; [by left | right; by apply (H2 r)].
Qed.

Lemma consistent_delete u p r o v refs :
  consistent u p → u !! r = Some o → p !! out_pk o = Some (v, refs) →
  consistent (delete r u)
             (<[out_pk o := ((v - Z.of_N (out_value o))%Z, filter (λ k, k ≠ r) refs)]> p).
Proof.
  intros Hc Hr Hp. destruct (proj1 Hc _ _ _ Hp) as [Hv Hrefs].
  pose proof (pays_delete (out_pk o) u r o Hr) as HP. rewrite decide_True in HP by done.
  apply (consistent_set u); [done| | | |].
  - intros pk Hne. pose proof (pays_delete pk u r o Hr) as HP'. by rewrite decide_False in HP' by done.
  - intros r' o' Hl. unf. apply lookup_delete_Some in Hl as [_ Hl]. by right.
  - rewrite Hv, (sumv_perm _ _ HP), sumv_cons. lia.
  - rewrite Hrefs, HP, fmap_cons, filter_cons. cbn [fst].
    rewrite decide_False by (intros Hne; by apply Hne).
    rewrite filter_all_id; [done|].
    apply Forall_forall. intros k Hk ->.
    apply pays_key_elem in Hk. unf. rewrite lookup_delete in Hk. by destruct Hk.
Qed.

Lemma consistent_insert u p k o v refs :
  consistent u p → u !! k = None → default (0%Z, []) (p !! out_pk o) = (v, refs) →
  consistent (<[k:=o]> u)
             (<[out_pk o := ((v + Z.of_N (out_value o))%Z, refs ++ [k])]> p).
Proof.
  intros Hc Hk Hd. destruct (consistent_default _ _ _ _ _ Hc Hd) as [Hv Hrefs].
  pose proof (pays_insert (out_pk o) u k o Hk) as HP. rewrite decide_True in HP by done.
  apply (consistent_set u); [done| | | |].
  - intros pk Hne. pose proof (pays_insert pk u k o Hk) as HP'. by rewrite decide_False in HP' by done.
  - intros r' o' Hl. unf. apply lookup_insert_Some in Hl as [[_ <-]|[_ Hl]]; [by left | by right].
  - rewrite Hv, (sumv_perm _ _ HP), sumv_cons. lia.
  - rewrite HP, fmap_cons, Hrefs. cbn [fst]. symmetry. apply Permutation_cons_append.
Qed.

Definition in_key (i : input) : refkey := ref_key (in_ref i).
Definition tx_in_keys (t : tx) : list refkey := in_key <$> tx_inputs t.
Fixpoint txs_in_keys (ts : list tx) : list refkey :=
  match ts with [] => [] | t :: r => tx_in_keys t ++ txs_in_keys r end.

(* the keys under which [add_outputs id i outs] / [pkb_add id i outs] insert *)
Fixpoint out_keys (id : bytes) (i : N) (outs : list output) : list refkey :=
  match outs with [] => [] | _ :: r => (id, i) :: out_keys id (i + 1) r end.

Section Proofs.
  Variable sha : bytes → bytes.

  Definition tx_out_keys (t : tx) : list refkey := out_keys (tx_id sha t) 0 (tx_outputs t).
  Fixpoint txs_out_keys (ts : list tx) : list refkey :=
    match ts with [] => [] | t :: r => tx_out_keys t ++ txs_out_keys r end.

  (* What a fully validated block [b] guarantees relative to the unspent set [u0] it is applied to.
     (a) wfb_in_present: every input of every non-reward transaction refers to an output that is unspent at the
         START of the block (validation looks references up in the block-start set; in particular no transaction
         spends an output created inside the same block).  Needed: otherwise [spend_inputs]/[pkb_spend] fail, and
         [pkb_spend] (reading the block-start set) and [spend_inputs] (reading the running set) could disagree.
     (b) wfb_in_NoDup: no reference is spent twice inside the block.  Needed: [pkb_spend] reads the block-start
         set and so would happily subtract the same output twice.
     (c) wfb_out_fresh / wfb_out_NoDup: the keys (tx_id t, i) created by the block are not already unspent and are
         pairwise distinct ("transaction ids do not repeat while an output is unspent").  Needed: inserting over an
         existing key silently drops the old output from the unspent set while its value and reference stay in the
         balance of its key.  In the real system this follows from collision-freedom of the hash and the height in
         the reward transaction; here it is an explicit premise.
         The premise is stated statically against the block-start set; this is marginally stronger than "absent at
         the moment of insertion" (it also excludes re-creating, later in the same block, a key that the block
         itself spent earlier), and is what uniqueness of transaction ids gives anyway.
     No premise on the reward transaction's inputs (they are ignored), on values, or on signatures is needed.
     (a) and (b) are what makes the replay succeed ([replay_total]); once the replay is KNOWN to have succeeded
     they are forced ([fresh_block_wf]) and neither needs assuming ([balances_consistent_fresh_only] below), so only
     (c) is a genuine assumption of the consistency theorem. *)
  Record wf_block (u0 : utxo) (b : block) : Prop := {
    wfb_in_present : Forall (λ k, is_Some (u0 !! k)) (txs_in_keys (tail (b_txs b)));
    wfb_in_NoDup   : NoDup (txs_in_keys (tail (b_txs b)));
    wfb_out_fresh  : Forall (λ k, u0 !! k = None) (txs_out_keys (b_txs b));
    wfb_out_NoDup  : NoDup (txs_out_keys (b_txs b));
  }.

  (* the per-block premises, threaded along the unspent sets the replay itself computes *)
  Fixpoint wf_from (u : utxo) (chain : list block) : Prop :=
    match chain with
    | [] => True
    | b :: r => wf_block u b ∧
                match uto_apply_block sha u b with
                | Some u1 => wf_from u1 r
                | None => True
                end
    end.
  Definition well_formed_chain (chain : list block) : Prop := wf_from ∅ chain.

  (* premise (c) alone *)
  Record fresh_block (u0 : utxo) (b : block) : Prop := {
    fb_out_fresh : Forall (λ k, u0 !! k = None) (txs_out_keys (b_txs b));
    fb_out_NoDup : NoDup (txs_out_keys (b_txs b));
  }.
  Fixpoint fresh_from (u : utxo) (chain : list block) : Prop :=
    match chain with
    | [] => True
    | b :: r => fresh_block u b ∧
                match uto_apply_block sha u b with
                | Some u1 => fresh_from u1 r
                | None => True
                end
    end.
  Definition fresh_chain (chain : list block) : Prop := fresh_from ∅ chain.

  Lemma wf_from_fresh chain : ∀ u, wf_from u chain → fresh_from u chain.
  Proof.
    induction chain as [|b chain IH]; intros u Hwf; cbn [wf_from fresh_from] in *; [done|].
    destruct Hwf as [[_ _ H3 H4] Hwf]. split; [by split|].
    destruct (uto_apply_block sha u b); [by apply IH|done].
  Qed.

  Lemma add_outputs_lookup_ne id outs : ∀ i u k,
    k ∉ out_keys id i outs → add_outputs id i outs u !! k = u !! k.
  Proof.
    induction outs as [|o outs IH]; intros i u k Hk; cbn [add_outputs out_keys] in *; [done|].
    apply not_elem_of_cons in Hk as [Hne Hk].
    rewrite IH by done. unf. by rewrite lookup_insert_ne.
  Qed.

  Lemma add_outputs_consistent id outs : ∀ i u p,
    consistent u p →
    Forall (λ k, u !! k = None) (out_keys id i outs) → NoDup (out_keys id i outs) →
    consistent (add_outputs id i outs u) (pkb_add id i outs p).
  Proof.
    induction outs as [|o outs IH]; intros i u p Hc Hfresh Hnd; cbn [add_outputs pkb_add out_keys] in *; [done|].
    apply Forall_cons in Hfresh as [Hk Hfresh]. apply NoDup_cons in Hnd as [Hnotin Hnd].
    destruct (default (0%Z, []) (p !! out_pk o)) as [v refs] eqn:Hd.
    apply IH; [by apply consistent_insert | | done].
    apply Forall_forall. intros k' Hk'. unf.
    rewrite lookup_insert_ne by (intros <-; done). exact (Forall_elem_of Hfresh k' Hk').
  Qed.

  (* [pkb_spend] reads the output of an input from the block-start set [u0], [spend_inputs] from the running set
     [uk].  Inside a block whose created keys are new to [u0], the running set holds, on the keys of [u0], nothing
     but what [u0] holds there: *)
  Definition below (u0 uk : utxo) : Prop := ∀ k o, uk !! k = Some o → is_Some (u0 !! k) → u0 !! k = Some o.

  Lemma spend_inputs_cons i ins u u' :
    spend_inputs (i :: ins) u = Some u' →
    is_Some (u !! in_key i) ∧ spend_inputs ins (delete (in_key i) u) = Some u'.
  Proof. cbn [spend_inputs]. fold (in_key i). destruct (u !! in_key i); [eauto|done]. Qed.

  Lemma spend_inputs_subseteq ins : ∀ u u', spend_inputs ins u = Some u' → u' ⊆ u.
  Proof.
    induction ins as [|i ins IH]; intros u u' Hs; [by injection Hs as <-|].
    apply spend_inputs_cons in Hs as [_ Hs]. unf.
    exact (transitivity (IH _ _ Hs) (delete_subseteq u _)).
  Qed.

  Lemma spend_ok u0 ins : ∀ uk p u',
    consistent uk p → below u0 uk → Forall (λ k, is_Some (u0 !! k)) (in_key <$> ins) →
    spend_inputs ins uk = Some u' →
    ∃ p', pkb_spend u0 ins p = Some p' ∧ consistent u' p'.
  Proof.
    induction ins as [|i ins IH]; intros uk p u' Hc Hb Hin Hs.
    { injection Hs as <-. eauto. }
    apply spend_inputs_cons in Hs as [[o Ho] Hs]. apply Forall_cons in Hin as [Hi Hin].
    cbn [pkb_spend]. fold (in_key i).
    rewrite (Hb _ _ Ho Hi). destruct (proj2 Hc _ _ Ho) as [[v refs] Hp]. rewrite Hp.
    eapply IH; [by apply consistent_delete| |done|done].
    intros k o' Hk. apply Hb. unf. by apply lookup_delete_Some in Hk as [_ Hk].
  Qed.

  (* the keys [ks], still to be created, are absent from the block-start set and from the running set *)
  Definition fresh (u0 uk : utxo) (ks : list refkey) : Prop :=
    Forall (λ k, u0 !! k = None ∧ uk !! k = None) ks.

  Lemma outputs_ok u0 id outs i u p fut :
    consistent u p → below u0 u →
    NoDup (out_keys id i outs ++ fut) → fresh u0 u (out_keys id i outs ++ fut) →
    consistent (add_outputs id i outs u) (pkb_add id i outs p) ∧ below u0 (add_outputs id i outs u) ∧
    fresh u0 (add_outputs id i outs u) fut.
  Proof.
    intros Hc Hb (Hnd & Hdisj & _)%NoDup_app [Hfr1 Hfr2]%Forall_app.
    split_and!.
    - apply add_outputs_consistent; [done| |done]. eapply Forall_impl; [exact Hfr1|]. by intros k [_ Hk].
    - intros k o Hk Hs0. apply Hb; [|done]. rewrite add_outputs_lookup_ne in Hk; [done|].
      intros Hk'. destruct (Forall_elem_of Hfr1 k Hk') as [Hn _]. rewrite Hn in Hs0. by destruct Hs0.
    - apply Forall_forall. intros k Hk. destruct (Forall_elem_of Hfr2 k Hk) as [Hn0 Hnk]. split; [done|].
      rewrite add_outputs_lookup_ne; [done|]. intros Hk'. by apply (Hdisj k Hk').
  Qed.

  Lemma tx_ok u0 (cb : bool) t uk p u' fut :
    consistent uk p → below u0 uk →
    (cb = false → Forall (λ k, is_Some (u0 !! k)) (tx_in_keys t)) →
    NoDup (tx_out_keys t ++ fut) → fresh u0 uk (tx_out_keys t ++ fut) →
    uto_apply_tx sha uk t cb = Some u' →
    ∃ p', pkb_apply_tx sha u0 p t cb = Some p' ∧ consistent u' p' ∧ below u0 u' ∧ fresh u0 u' fut.
  Proof.
    intros Hc Hb Hin Hnd Hfr Hu. unfold uto_apply_tx in Hu. unfold pkb_apply_tx. destruct cb.
    - injection Hu as <-. eexists. split; [done|]. by apply outputs_ok.
    - destruct (spend_inputs (tx_inputs t) uk) as [u1|] eqn:Hs; [|done]. injection Hu as <-.
      destruct (spend_ok u0 _ _ p _ Hc Hb (Hin eq_refl) Hs) as (p1 & -> & Hc1).
      pose proof (spend_inputs_subseteq _ _ _ Hs) as Hsub.
      eexists. split; [done|]. apply outputs_ok; [done| |done|].
      + intros k o Hk. apply Hb. by eapply lookup_weaken.
      + eapply Forall_impl; [exact Hfr|]. intros k [Hn0 Hnk]. split; [done|]. by eapply lookup_weaken_None.
  Qed.

  Lemma txs_ok u0 ts : ∀ uk p u',
    consistent uk p → below u0 uk → Forall (λ k, is_Some (u0 !! k)) (txs_in_keys ts) →
    NoDup (txs_out_keys ts) → fresh u0 uk (txs_out_keys ts) →
    uto_apply_txs sha uk ts = Some u' →
    ∃ p', pkb_apply_txs sha u0 p ts = Some p' ∧ consistent u' p'.
  Proof.
    induction ts as [|t ts IH]; intros uk p u' Hc Hb Hin Hnd Hfr Hu;
      cbn [txs_in_keys txs_out_keys uto_apply_txs pkb_apply_txs] in *.
    { injection Hu as <-. eauto. }
    destruct (uto_apply_tx sha uk t false) as [u1|] eqn:Hu1; [|done].
    apply Forall_app in Hin as [Hin1 Hin].
    destruct (tx_ok u0 false t uk p u1 _ Hc Hb (λ _, Hin1) Hnd Hfr Hu1) as (p1 & -> & Hc1 & Hb1 & Hfr1).
    apply NoDup_app in Hnd as (_ & _ & Hnd). by eapply IH.
  Qed.

  (* Given premise (c), and that the unspent-set update went through, the balance update goes through exactly when
     every input is unspent at the start of the block (a) (the converse is [pkb_apply_block_present]); and then the
     result is consistent. *)
  Theorem block_ok u0 p b u' :
    fresh_block u0 b → consistent u0 p → uto_apply_block sha u0 b = Some u' →
    Forall (λ k, is_Some (u0 !! k)) (txs_in_keys (tail (b_txs b))) →
    ∃ p', pkb_apply_block sha u0 p b = Some p' ∧ consistent u' p'.
  Proof.
    intros [Hout Hnd] Hc Hu Hin. unfold uto_apply_block, pkb_apply_block in *.
    destruct (b_txs b) as [|cb rest]; [done|]. cbn [tail txs_out_keys] in *.
    destruct (uto_apply_tx sha u0 cb true) as [u1|] eqn:Hu1; [|done].
    destruct (tx_ok u0 true cb u0 p u1 (txs_out_keys rest)) as (p1 & -> & Hc1 & Hb1 & Hfr1);
      [done| |done|done| |done|].
    { by intros k o Hk _. }
    { eapply Forall_impl; [exact Hout|]. done. }
    apply NoDup_app in Hnd as (_ & _ & Hnd). by eapply txs_ok.
  Qed.

  Lemma pkb_spend_present u0 ins : ∀ p p',
    pkb_spend u0 ins p = Some p' → Forall (λ k, is_Some (u0 !! k)) (in_key <$> ins).
  Proof.
    induction ins as [|i ins IH]; intros p p' Hs; cbn [fmap list_fmap pkb_spend] in *; [done|].
    fold (in_key i) in Hs.
    destruct (u0 !! in_key i) as [o|] eqn:Ho; [|done].
    destruct (p !! out_pk o) as [[v refs]|]; [|done].
    apply Forall_cons. split; [by exists o | by eapply IH].
  Qed.

  Lemma pkb_apply_txs_present u0 ts : ∀ p p',
    pkb_apply_txs sha u0 p ts = Some p' → Forall (λ k, is_Some (u0 !! k)) (txs_in_keys ts).
  Proof.
    induction ts as [|t ts IH]; intros p p' Hs; cbn [txs_in_keys pkb_apply_txs] in *; [done|].
    unfold pkb_apply_tx in Hs.
    destruct (pkb_spend u0 (tx_inputs t) p) as [p1|] eqn:Hp1; [|done].
    apply Forall_app. split; [by eapply pkb_spend_present | by eapply IH].
  Qed.

  Lemma pkb_apply_block_present u0 p b p' :
    pkb_apply_block sha u0 p b = Some p' → Forall (λ k, is_Some (u0 !! k)) (txs_in_keys (tail (b_txs b))).
  Proof.
    unfold pkb_apply_block. destruct (b_txs b) as [|cb rest]; [done|]. cbn [tail pkb_apply_tx].
    apply pkb_apply_txs_present.
  Qed.

  Lemma spend_inputs_succeeds ins : ∀ uk pend,
    NoDup ((in_key <$> ins) ++ pend) → Forall (λ k, is_Some (uk !! k)) ((in_key <$> ins) ++ pend) →
    ∃ u', spend_inputs ins uk = Some u' ∧ Forall (λ k, is_Some (u' !! k)) pend.
  Proof.
    induction ins as [|i ins IH]; intros uk pend Hnd Hall; cbn [fmap list_fmap app] in *.
    { by exists uk. }
    apply NoDup_cons in Hnd as [Hnotin Hnd]. apply Forall_cons in Hall as [[o Ho] Hall].
    cbn [spend_inputs]. fold (in_key i). rewrite Ho.
    apply IH; [done|]. apply Forall_forall. intros k Hk. unf.
    rewrite lookup_delete_ne by (by intros <-). exact (Forall_elem_of Hall k Hk).
  Qed.

  Lemma spend_inputs_inv ins : ∀ uk u',
    spend_inputs ins uk = Some u' →
    NoDup (in_key <$> ins) ∧ Forall (λ k, is_Some (uk !! k)) (in_key <$> ins) ∧
    Forall (λ k, u' !! k = None) (in_key <$> ins) ∧ (∀ k, is_Some (u' !! k) → is_Some (uk !! k)).
  Proof.
    induction ins as [|i ins IH]; intros uk u' Hs.
    { injection Hs as <-. by split_and!; [constructor|constructor|constructor|]. }
    apply spend_inputs_cons in Hs as [Hi Hs]. apply IH in Hs as (Hnd & Hpres & Hgone & Hsub).
    (* the later inputs, and what is left at the end, are in [delete (in_key i) uk]: not [in_key i], and in [uk] *)
    pose proof (λ k, proj1 (lookup_delete_is_Some uk (in_key i) k)) as Hdel.
    rewrite fmap_cons. split_and!.
    - apply NoDup_cons_2; [|done]. intros Hin.
      apply (Forall_elem_of Hpres), Hdel in Hin. by destruct Hin.
    - apply Forall_cons_2; [done|]. eapply Forall_impl; [exact Hpres|]. intros k Hk. by apply Hdel.
    - apply Forall_cons_2; [|done]. apply eq_None_not_Some. intros Hx.
      apply Hsub, Hdel in Hx. by destruct Hx.
    - intros k Hk. by apply Hdel, Hsub.
  Qed.

  Lemma add_outputs_is_Some id outs : ∀ i u k, is_Some (u !! k) → is_Some (add_outputs id i outs u !! k).
  Proof.
    induction outs as [|o outs IH]; intros i u k Hk; cbn [add_outputs]; [done|].
    apply IH. unf. apply lookup_insert_is_Some'. by right.
  Qed.

  Lemma uto_apply_txs_succeeds ts : ∀ uk,
    NoDup (txs_in_keys ts) → Forall (λ k, is_Some (uk !! k)) (txs_in_keys ts) →
    is_Some (uto_apply_txs sha uk ts).
  Proof.
    induction ts as [|t ts IH]; intros uk Hnd Hall; cbn [txs_in_keys uto_apply_txs] in *; [done|].
    destruct (spend_inputs_succeeds (tx_inputs t) uk (txs_in_keys ts) Hnd Hall) as (u1 & Hs & Hall1).
    unfold uto_apply_tx. rewrite Hs.
    apply NoDup_app in Hnd as (_ & _ & Hnd).
    apply IH; [done|]. eapply Forall_impl; [exact Hall1|]. intros k. apply add_outputs_is_Some.
  Qed.

  (* The converse, under freshness of the created keys against the block-start set [u0]: if the fold went through
     and every input is in [u0], no input is spent twice. *)
  Lemma uto_apply_txs_in_NoDup (u0 : utxo) ts : ∀ uk u',
    uto_apply_txs sha uk ts = Some u' →
    Forall (λ k, is_Some (u0 !! k)) (txs_in_keys ts) → Forall (λ k, u0 !! k = None) (txs_out_keys ts) →
    NoDup (txs_in_keys ts) ∧ Forall (λ k, is_Some (uk !! k)) (txs_in_keys ts).
  Proof.
    induction ts as [|t ts IH]; intros uk u' Hs Hin Hout; cbn [txs_in_keys txs_out_keys uto_apply_txs] in *.
    { split; constructor. }
    unfold uto_apply_tx in Hs.
    destruct (spend_inputs (tx_inputs t) uk) as [u1|] eqn:Hu1; [|done].
    apply Forall_app in Hin as [_ Hin]. apply Forall_app in Hout as [Hout1 Hout].
    destruct (IH _ _ Hs Hin Hout) as [Hnd Hpres].
    destruct (spend_inputs_inv _ _ _ Hu1) as (Hnd1 & Hpres1 & Hgone1 & Hsub1).
    (* a pending input is in the block-start set, hence not among the created keys, hence already in [u1] *)
    assert (Hpres' : ∀ k, k ∈ txs_in_keys ts → is_Some (u1 !! k)).
    { intros k Hk. rewrite <-(add_outputs_lookup_ne (tx_id sha t) (tx_outputs t) 0).
      - exact (Forall_elem_of Hpres k Hk).
      - intros Hc. destruct (Forall_elem_of Hin k Hk) as [x Hx]. by rewrite (Forall_elem_of Hout1 k Hc) in Hx. }
    split.
    - apply NoDup_app. split_and!; [done| |done].
      intros k Hk1 Hk2. destruct (Hpres' k Hk2) as [x Hx]. by rewrite (Forall_elem_of Hgone1 k Hk1) in Hx.
    - apply Forall_app. split; [done|]. apply Forall_forall. intros k Hk. by apply Hsub1, Hpres'.
  Qed.

  Theorem uto_apply_block_succeeds u0 b :
    b_txs b ≠ [] →
    Forall (λ k, is_Some (u0 !! k)) (txs_in_keys (tail (b_txs b))) →   (* (a) *)
    NoDup (txs_in_keys (tail (b_txs b))) →                             (* (b) *)
    is_Some (uto_apply_block sha u0 b).
  Proof.
    intros Hne Hall Hnd. unfold uto_apply_block.
    destruct (b_txs b) as [|cb rest]; [done|]. cbn [tail uto_apply_tx] in *.
    apply uto_apply_txs_succeeds; [done|].
    eapply Forall_impl; [exact Hall|]. intros k. apply add_outputs_is_Some.
  Qed.

  (* under freshness (c), success of both folds on a block forces premises (a) and (b) *)
  Theorem fresh_block_wf u0 p b u' p' :
    fresh_block u0 b → uto_apply_block sha u0 b = Some u' → pkb_apply_block sha u0 p b = Some p' →
    wf_block u0 b.
  Proof.
    intros [Hfr Hnd] Hu Hp. pose proof (pkb_apply_block_present _ _ _ _ Hp) as Ha.
    split; [done| |done|done].
    unfold uto_apply_block in Hu. destruct (b_txs b) as [|cb rest]; [done|].
    cbn [tail uto_apply_tx txs_out_keys] in *. apply Forall_app in Hfr as [_ Hfr].
    by destruct (uto_apply_txs_in_NoDup u0 _ _ _ Hu Ha Hfr).
  Qed.

  (* The consistency theorem ASSUMES that the replay returned a result, and freshness (c); nothing else.
     (a) is then a fact and no premise: [pkb_spend] fails on a reference absent from the block-start set
     ([pkb_apply_block_present]), and that is where [block_ok] gets it from.
     (b) is neither assumed nor used: [block_ok] does not ask for it.  (Under (c) a successful replay forces (b)
     as well, because the second spend of a reference fails on the running set: [fresh_block_wf], and for a chain
     [fresh_replay_wf], the converse of [wf_from_fresh].)
     Freshness cannot be observed from the success of the replay ([Example.freshness_needed]). *)
  Lemma replay_consistent chain : ∀ u p u' p',
    consistent u p → fresh_from u chain → replay sha u p chain = Some (u', p') → consistent u' p'.
  Proof.
    induction chain as [|b chain IH]; intros u p u' p' Hc Hfr Hr; cbn [replay fresh_from] in *.
    { by injection Hr as <- <-. }
    destruct Hfr as [Hb Hfr].
    destruct (pkb_apply_block sha u p b) as [p1|] eqn:Hp; [|done].
    destruct (uto_apply_block sha u b) as [u1|] eqn:Hu; [|done].
    destruct (block_ok u p b u1 Hb Hc Hu (pkb_apply_block_present _ _ _ _ Hp)) as (p1' & Hp' & Hc1).
    rewrite Hp in Hp'. injection Hp' as <-. by apply (IH u1 p1).
  Qed.

  Lemma fresh_replay_wf chain : ∀ u p up,
    fresh_from u chain → replay sha u p chain = Some up → wf_from u chain.
  Proof.
    induction chain as [|b chain IH]; intros u p up Hfr Hr; cbn [replay wf_from fresh_from] in *; [done|].
    destruct Hfr as [Hb Hfr].
    destruct (pkb_apply_block sha u p b) as [p1|] eqn:Hp; [|done].
    destruct (uto_apply_block sha u b) as [u1|] eqn:Hu; [|done].
    split; [by eapply fresh_block_wf | by eapply IH].
  Qed.

  Theorem balances_consistent_fresh_only chain u p :
    fresh_chain chain → replay sha ∅ ∅ chain = Some (u, p) → consistent u p.
  Proof. apply replay_consistent, consistent_empty. Qed.

  Theorem balances_consistent chain u p :
    well_formed_chain chain → replay sha ∅ ∅ chain = Some (u, p) → consistent u p.
  Proof. intros Hwf. by apply balances_consistent_fresh_only, wf_from_fresh. Qed.

  Corollary balances_absent chain u p pk :
    well_formed_chain chain → replay sha ∅ ∅ chain = Some (u, p) → p !! pk = None → pays pk u = [].
  Proof. intros Hwf Hr. eapply consistent_absent, balances_consistent; eauto. Qed.

  (* (a) and (b) are what makes the replay succeed *)
  Lemma replay_total_from chain : ∀ u p,
    consistent u p → wf_from u chain → Forall (λ b, b_txs b ≠ []) chain →
    is_Some (replay sha u p chain).
  Proof.
    induction chain as [|b chain IH]; intros u p Hc Hwf Hne; cbn [replay wf_from] in *; [done|].
    destruct Hwf as [[Hin Hind Hout Houtd] Hwf]. apply Forall_cons in Hne as [Hne1 Hne].
    destruct (uto_apply_block_succeeds u b Hne1 Hin Hind) as [u1 Hu].
    destruct (block_ok u p b u1 (Build_fresh_block _ _ Hout Houtd) Hc Hu Hin) as (p1 & Hp & Hc1).
    rewrite Hu in Hwf. rewrite Hu, Hp. by apply IH.
  Qed.

  Theorem replay_total chain :
    well_formed_chain chain → Forall (λ b, b_txs b ≠ []) chain → is_Some (replay sha ∅ ∅ chain).
  Proof. intros. by apply replay_total_from; [apply consistent_empty| |]. Qed.
End Proofs.

(* non-vacuity: reward to key A; then a block whose second transaction spends it to keys B and C *)
Module Example.
  Definition sha0 : bytes → bytes := λ b, b.
  Definition hdr : header :=
    mkHeader (mkSummary 0 [] [] 0 [] 0) (mkEvidence [] [] []).
  Definition keyA : bytes := [1%N].
  Definition keyB : bytes := [2%N].
  Definition keyC : bytes := [3%N].
  Definition cb1 : tx := mkTx [mkInput (mkOutref [] 0) (SigCoinbase 0 [])] [mkOutput 10 keyA].
  Definition cb2 : tx := mkTx [mkInput (mkOutref [] 0) (SigCoinbase 1 [])] [mkOutput 10 keyA].
  Definition pay : tx :=
    mkTx [mkInput (mkOutref (tx_id sha0 cb1) 0) (SigSecp [])] [mkOutput 4 keyB; mkOutput 6 keyC].
  Definition chain0 : list block := [mkBlock hdr [cb1]; mkBlock hdr [cb2; pay]].

  Local Ltac dec := apply (bool_decide_unpack _); vm_compute; exact I.
  (* [Forall (λ k, u !! k = None) ks] on concrete data ([output] has no decidable equality instance) *)
  Local Ltac fresh_tac := vm_compute; repeat constructor.
  Local Ltac wfb := split; cbn [b_txs tail]; [dec | dec | fresh_tac | dec].

  Lemma example_replay : is_Some (replay sha0 ∅ ∅ chain0).
  Proof. dec. Qed.

  Lemma example_wf : well_formed_chain sha0 chain0.
  Proof.
    unfold well_formed_chain, chain0. cbn [wf_from].
    split; [wfb|].
    destruct (uto_apply_block sha0 ∅ (mkBlock hdr [cb1])) as [u1|] eqn:Hu; [|done].
    assert (Hu1 : u1 = <[(tx_id sha0 cb1, 0%N) := mkOutput 10 keyA]> ∅).
    { cbn in Hu. by injection Hu as <-. }
    subst u1. clear Hu.
    split; [|by destruct (uto_apply_block _ _ _)].
    wfb.
  Qed.

  (* the resulting balances, computed: A holds the second reward, B and C what was paid to them *)
  Lemma example_balances :
    ∃ u p, replay sha0 ∅ ∅ chain0 = Some (u, p) ∧
           p !! keyA = Some (10%Z, [(tx_id sha0 cb2, 0%N)]) ∧
           p !! keyB = Some (4%Z, [(tx_id sha0 pay, 0%N)]) ∧
           p !! keyC = Some (6%Z, [(tx_id sha0 pay, 1%N)]) ∧
           consistent u p.
  Proof.
    destruct example_replay as [[u p] Hr].
    exists u, p. split; [done|].
    assert (Hc : consistent u p) by (eapply balances_consistent; [apply example_wf|exact Hr]).
    assert (Hp : p = default ∅ (snd <$> replay sha0 ∅ ∅ chain0)) by (by rewrite Hr).
    split_and!; [rewrite Hp; vm_compute; reflexivity ..| exact Hc].
  Qed.

  (* premise (c) is not redundant: with a colliding hash the replay succeeds but the balances are wrong.
     Two reward-only blocks whose reward transactions get the same id: the second reward overwrites the first
     in the unspent set, while key A keeps its 10 coins in the balances. *)
  Definition sha_const : bytes → bytes := λ _, [].
  Definition chain_bad : list block :=
    [mkBlock hdr [mkTx [] [mkOutput 10 keyA]]; mkBlock hdr [mkTx [] [mkOutput 5 keyB]]].

  Lemma freshness_needed :
    ∃ u p, replay sha_const ∅ ∅ chain_bad = Some (u, p) ∧ ¬ consistent u p ∧ ¬ fresh_chain sha_const chain_bad.
  Proof.
    assert (Hsome : is_Some (replay sha_const ∅ ∅ chain_bad)) by dec.
    destruct Hsome as [[u p] Hr]. exists u, p. split; [done|].
    assert (Hu : u = default ∅ (fst <$> replay sha_const ∅ ∅ chain_bad)) by (by rewrite Hr).
    assert (Hp : p = default ∅ (snd <$> replay sha_const ∅ ∅ chain_bad)) by (by rewrite Hr).
    assert (Hnc : ¬ consistent u p).
    { intros [H1 _].
      assert (HA : p !! keyA = Some (10%Z, [([], 0%N)])) by (rewrite Hp; vm_compute; reflexivity).
      apply H1 in HA as [HA _]. rewrite Hu in HA. vm_compute in HA. discriminate HA. }
    split; [done|].
    intros Hfr. apply Hnc. by eapply balances_consistent_fresh_only.
  Qed.
End Example.

