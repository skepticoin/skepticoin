(* Link between the node model's verdict inputs and the consensus model: the three verdicts that NodeModel.handle_block
   consumes are all positive exactly when CoinState.add_block (full validation) succeeds. *)
From Coq Require Import NArith.
From SkV Require Import Bytes Codec ChainState Pow Validate NodeModel.

Section Link.
  Variable sha scrypt blake : bytes -> bytes.
  Variable verify : bytes -> bytes -> bytes -> N.
  Variable P : cparams.

  Definition res_ok {A} (r : res A) : bool := match r with Ok _ => true | Err _ => false end.
  Definition verdicts (s : cstate) (b : block) (now : N) : bverdict :=
    mkBV (res_ok (v_block_by_itself sha P b now))
         (match add_nv sha s b with Some _ => true | None => false end)
         (res_ok (v_block_in_state sha scrypt blake verify P b s)).

  Lemma verdicts_full_validation s b now :
    (bv_itself (verdicts s b now) = true /\ bv_apply (verdicts s b now) = true /\ bv_instate (verdicts s b now) = true)
    <-> exists s', add_block sha scrypt blake verify P s b now = Ok s'.
  Proof.
    unfold verdicts, add_block, bind, of_opt, res_ok; cbn [bv_itself bv_apply bv_instate].
    destruct (v_block_by_itself sha P b now), (v_block_in_state sha scrypt blake verify P b s), (add_nv sha s b);
      (split; [intros (H1 & H2 & H3)|intros [s' H]]); try discriminate; eauto.
  Qed.
End Link.
