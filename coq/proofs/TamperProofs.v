(* Value-level tamper evidence of blocks.

   A block is (summary, evidence, transaction list).  Above the checkpoint horizon (FV) an accepted block carries
   exactly the evidence recomputed by construct_evidence (ValidProofs.accept_sound_header):
       summary_hash = scrypt (enc_summary sm ++ be_enc 8 height)
       sample       = chain sample (a function of summary_hash, height and the state)
       block_hash   = blake (summary_hash ++ sample ++ enc_list enc_tx txs)
   so the evidence commits to the summary (through scrypt) and to the transaction list (through blake), and the block
   id sha (enc_header header) commits to summary and evidence.  The theorems below turn this into: two acceptable
   blocks that agree on two of the three components are equal, i.e. altering a single component of an acceptable
   block never yields another acceptable block.

   The cryptographic idealisations are EXPLICIT HYPOTHESES of the Section (injectivity of the three hash functions on
   byte strings); each theorem is closed with [Proof using] naming exactly the ones it needs, so that after the
   Section closes every theorem carries its own premises only.  Nothing is postulated globally.

   NOT PROVED HERE (and not provable from injectivity alone): that an alteration which changes SEVERAL components at
   once cannot be acceptable.  Example: a flip of a continuation bit of the VLQ height shifts the boundaries of all
   later fields, so the decoded block may differ from the original in summary, evidence AND transaction list
   simultaneously (a flip inside the transaction region -- the VLQ transaction count, a coinbase-data length byte --
   leaves the header as it is and is covered by ByteTamperProofs.tx_region_tamper_rejected); whether such a block is
   acceptable is the question whether scrypt/blake of the new content happen to equal the (also altered) stated
   evidence and whether the new id is below the new target.  Excluding that needs a random-oracle (probabilistic)
   argument, not an injectivity one.  It is covered by exhaustive enumeration of single-bit/single-byte alterations
   in the test harness instead.  Likewise nothing here is claimed for blocks at or below the checkpoint horizon
   (not FV), where validation only compares the id with the table of known hashes. *)
From stdpp Require Import gmap.
From Coq Require Import NArith ZArith Lia.
From SkV Require Import Bytes Codec ChainState Pow Validate ChainDefs ValidProofs CodecProofs.
Open Scope N_scope.

Lemma header_ext (h h' : header) : h_summary h = h_summary h' -> h_evidence h = h_evidence h' -> h = h'.
Proof. destruct h, h'; cbn. intros -> ->; done. Qed.

Lemma block_ext (b b' : block) :
  h_summary (b_header b) = h_summary (b_header b') -> h_evidence (b_header b) = h_evidence (b_header b') ->
  b_txs b = b_txs b' -> b = b'.
Proof. destruct b, b'; cbn. intros Hs He ->. rewrite (header_ext _ _ Hs He). done. Qed.

Lemma wf_block_parts (b : block) :
  wf_block b = true ->
  wf_summary (h_summary (b_header b)) = true /\ wf_evidence (h_evidence (b_header b)) = true /\
  wf_header (b_header b) = true /\ forallb wf_tx (b_txs b) = true.
Proof.
  unfold wf_block. intros H. apply andb_prop in H as [Hh Ht].
  pose proof Hh as Hh'. unfold wf_header in Hh'. apply andb_prop in Hh' as [Hs He]. done.
Qed.

Section Tamper.
  Variable sha : bytes -> bytes.
  Variable scrypt : bytes -> bytes.
  Variable blake : bytes -> bytes.
  Variable verify : bytes -> bytes -> bytes -> N.
  Variable P : cparams.

  (* the cryptographic idealisations; every proof below names the ones it uses *)
  Hypothesis sha_inj : forall a b : bytes, sha a = sha b -> a = b.
  Hypothesis scrypt_inj : forall a b : bytes, scrypt a = scrypt b -> a = b.
  Hypothesis blake_inj : forall a b : bytes, blake a = blake b -> a = b.

  Notation accepted s b now s' := (add_block sha scrypt blake verify P s b now = Ok s').

  (* the summary hash of a block: scrypt over the encoded summary, salted with the 8-byte height *)
  Definition summary_hash_of (b : block) : bytes :=
    scrypt (enc_summary (h_summary (b_header b)) ++ be_enc 8 (b_height b)).

  (* the shape of the evidence, independently of the state the chain sample was drawn from *)
  Definition commits (b : block) : Prop :=
    exists sample,
      h_evidence (b_header b) =
      mkEvidence (summary_hash_of b) sample
                 (blake (summary_hash_of b ++ sample ++ enc_list enc_tx (b_txs b))).

  Lemma accepted_recomputed s b now s1 :
    accepted s b now s1 -> FV P b ->
    construct_evidence sha scrypt blake P s (h_summary (b_header b)) (b_height b) (b_txs b)
    = Some (h_evidence (b_header b)).
  Proof using Type.
    intros H Hfv.
    destruct (accept_sound_header _ _ _ _ _ _ _ _ _ H Hfv)
      as (_ & prev & cb & rest & ev & _ & _ & _ & _ & _ & _ & _ & Hev & Heq).
    rewrite Heq; exact Hev.
  Qed.

  Lemma construct_evidence_commits s sm h txs ev :
    construct_evidence sha scrypt blake P s sm h txs = Some ev ->
    exists sample,
      ev = mkEvidence (scrypt (enc_summary sm ++ be_enc 8 h)) sample
                      (blake (scrypt (enc_summary sm ++ be_enc 8 h) ++ sample ++ enc_list enc_tx txs)).
  Proof using Type.
    unfold construct_evidence. intros H. destruct (2 ^ 64 <=? h); [discriminate|]. lazy zeta in H.
    destruct (if h =? 0 then _ else _) as [sample|]; [|discriminate]. exists sample. congruence.
  Qed.

  Lemma accepted_commits s b now s1 : accepted s b now s1 -> FV P b -> commits b.
  Proof using Type.
    intros H Hfv. apply (construct_evidence_commits s), (accepted_recomputed _ _ _ _ H Hfv).
  Qed.

  (* (summary, transactions) determine the evidence: no injectivity needed, but the same state (the chain sample is
     drawn from it) *)
  Theorem evidence_is_function s b b' now now' s1 s2 :
    accepted s b now s1 -> accepted s b' now' s2 -> FV P b -> FV P b' ->
    h_summary (b_header b) = h_summary (b_header b') -> b_txs b = b_txs b' -> b = b'.
  Proof using Type.
    intros H H' Hfv Hfv' Hsm Htx.
    pose proof (accepted_recomputed _ _ _ _ H Hfv) as E.
    pose proof (accepted_recomputed _ _ _ _ H' Hfv') as E'.
    unfold b_height in E, E'. rewrite Hsm, Htx, E' in E. injection E as Hev.
    apply block_ext; done.
  Qed.

  (* (summary, evidence) determine the transactions: blake *)
  Lemma commits_same_header_same_txs b b' :
    commits b -> commits b' -> b_header b = b_header b' -> wf_block b = true -> wf_block b' = true -> b = b'.
  Proof using blake_inj.
    intros [sample E] [sample' E'] Hh Hwf Hwf'.
    apply wf_block_parts in Hwf as (_ & _ & _ & Htxs). apply wf_block_parts in Hwf' as (_ & _ & _ & Htxs').
    apply block_ext; [rewrite Hh; done | rewrite Hh; done |].
    rewrite Hh, E' in E. injection E as Hsh Hsample Hbh.
    apply blake_inj in Hbh. rewrite Hsh, Hsample in Hbh.
    apply app_inv_head, app_inv_head in Hbh.
    rewrite (ok_inj txs_codec _ _ Htxs' Htxs Hbh). done.
  Qed.

  (* the two blocks may have been accepted against two different states *)
  Theorem same_summary_and_evidence_same_txs_any_state s s' b b' now now' s1 s2 :
    accepted s b now s1 -> accepted s' b' now' s2 -> FV P b -> FV P b' ->
    b_header b = b_header b' -> wf_block b = true -> wf_block b' = true -> b = b'.
  Proof using blake_inj.
    intros H H' Hfv Hfv'.
    exact (commits_same_header_same_txs b b' (accepted_commits _ _ _ _ H Hfv) (accepted_commits _ _ _ _ H' Hfv')).
  Qed.

  (* (evidence, transactions) determine the summary: scrypt; no premise on the heights *)
  Lemma commits_same_evidence_same_summary b b' :
    commits b -> commits b' -> h_evidence (b_header b) = h_evidence (b_header b') ->
    wf_block b = true -> wf_block b' = true -> h_summary (b_header b) = h_summary (b_header b').
  Proof using scrypt_inj.
    intros [sample E] [sample' E'] Hev Hwf Hwf'.
    apply wf_block_parts in Hwf as (Hsm & _). apply wf_block_parts in Hwf' as (Hsm' & _).
    rewrite Hev, E' in E. injection E as Hsh _ _.
    unfold summary_hash_of in Hsh. apply scrypt_inj in Hsh.
    apply app_inj_2 in Hsh as [Henc _]; [|rewrite !be_enc_length; done].
    symmetry. apply (ok_inj summary_codec); done.
  Qed.

  Theorem same_evidence_and_txs_same_summary_any_state s s' b b' now now' s1 s2 :
    accepted s b now s1 -> accepted s' b' now' s2 -> FV P b -> FV P b' ->
    h_evidence (b_header b) = h_evidence (b_header b') -> b_txs b = b_txs b' ->
    wf_block b = true -> wf_block b' = true -> b = b'.
  Proof using scrypt_inj.
    intros H H' Hfv Hfv' Hev Htx Hwf Hwf'. apply block_ext; [|done|done].
    apply commits_same_evidence_same_summary;
      [exact (accepted_commits _ _ _ _ H Hfv)|exact (accepted_commits _ _ _ _ H' Hfv')|done..].
  Qed.

  (* the id determines the block: sha (id -> header) and blake (header -> transactions) *)
  Lemma same_id_same_header b b' :
    wf_block b = true -> wf_block b' = true -> block_id sha b = block_id sha b' -> b_header b = b_header b'.
  Proof using sha_inj.
    intros Hwf Hwf' Hid.
    apply wf_block_parts in Hwf as (_ & _ & Hh & _). apply wf_block_parts in Hwf' as (_ & _ & Hh' & _).
    unfold block_id, header_id in Hid. apply sha_inj in Hid. apply (ok_inj header_codec); done.
  Qed.

  Theorem same_id_same_block_any_state s s' b b' now now' s1 s2 :
    accepted s b now s1 -> accepted s' b' now' s2 -> FV P b -> FV P b' ->
    wf_block b = true -> wf_block b' = true -> block_id sha b = block_id sha b' -> b = b'.
  Proof using sha_inj blake_inj.
    intros H H' Hfv Hfv' Hwf Hwf' Hid.
    apply (same_summary_and_evidence_same_txs_any_state s s' b b' now now' s1 s2); try done.
    apply same_id_same_header; done.
  Qed.

  Theorem same_id_same_block s b b' now now' s1 s2 :
    accepted s b now s1 -> accepted s b' now' s2 -> FV P b -> FV P b' ->
    wf_block b = true -> wf_block b' = true -> block_id sha b = block_id sha b' -> b = b'.
  Proof using sha_inj blake_inj. apply same_id_same_block_any_state. Qed.

  Definition agree_on_two (b b' : block) : Prop :=
    (h_summary (b_header b) = h_summary (b_header b') /\ b_txs b = b_txs b') \/
    (h_summary (b_header b) = h_summary (b_header b') /\ h_evidence (b_header b) = h_evidence (b_header b')) \/
    (h_evidence (b_header b) = h_evidence (b_header b') /\ b_txs b = b_txs b').

  Theorem tamper_one_component s b b' now now' s1 s2 :
    accepted s b now s1 -> accepted s b' now' s2 -> FV P b -> FV P b' ->
    wf_block b = true -> wf_block b' = true -> agree_on_two b b' -> b = b'.
  Proof using scrypt_inj blake_inj.
    intros H H' Hfv Hfv' Hwf Hwf' [[Hsm Htx] | [[Hsm Hev] | [Hev Htx]]].
    - apply (evidence_is_function s b b' now now' s1 s2); done.
    - apply (same_summary_and_evidence_same_txs_any_state s s b b' now now' s1 s2); try done. apply header_ext; done.
    - apply (same_evidence_and_txs_same_summary_any_state s s b b' now now' s1 s2); done.
  Qed.
End Tamper.

(* each block has exactly one accepted encoding (no hash functions involved) *)
Theorem distinct_bytes_distinct_blocks (bs bs' : bytes) (b b' : block) :
  bytes_wf bs -> bytes_wf bs' -> dec_block bs = Some (b, []) -> dec_block bs' = Some (b', []) ->
  bs <> bs' -> b <> b'.
Proof.
  intros Hwf Hwf' H H' Hne Heq. apply Hne.
  rewrite <- (ok_canonical block_codec _ _ _ Hwf H), <- (ok_canonical block_codec _ _ _ Hwf' H'), Heq. done.
Qed.

(* of two different byte strings whose decoded blocks agree on two of the three components, at most one is acceptable
   against a given state *)
Corollary tampered_bytes_rejected
    (sha scrypt blake : bytes -> bytes) (verify : bytes -> bytes -> bytes -> N) (P : cparams)
    (scrypt_inj : forall a b : bytes, scrypt a = scrypt b -> a = b)
    (blake_inj : forall a b : bytes, blake a = blake b -> a = b)
    (s : cstate) (bs bs' : bytes) (b b' : block) (now now' : N) (s1 : cstate) :
  bytes_wf bs -> bytes_wf bs' -> dec_block bs = Some (b, []) -> dec_block bs' = Some (b', []) -> bs <> bs' ->
  add_block sha scrypt blake verify P s b now = Ok s1 -> FV P b -> FV P b' -> agree_on_two b b' ->
  forall s2, add_block sha scrypt blake verify P s b' now' <> Ok s2.
Proof.
  intros Hwf Hwf' Hd Hd' Hne H Hfv Hfv' Hag s2 H'.
  apply (distinct_bytes_distinct_blocks _ _ _ _ Hwf Hwf' Hd Hd' Hne).
  apply (tamper_one_component sha scrypt blake verify P scrypt_inj blake_inj s b b' now now' s1 s2); try done.
  - apply (ok_wf block_codec _ _ _ Hwf Hd).
  - apply (ok_wf block_codec _ _ _ Hwf' Hd').
Qed.
