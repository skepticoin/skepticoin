(* C20 -- containment of malformed input, over the dispatch model (local_peer catch-all around framing, decoding,
   protocol order and the message handlers; the handlers themselves are a parameter, modelled in NodeModel / PeerBook /
   Sync).  For EVERY byte string read from a peer: the shared state afterwards (chain state, pool, store, peer book,
   other connections) is exactly the result of the frames that were handled successfully; hence every invariant the
   handlers preserve on their success path survives arbitrary input; a read whose first frame is malformed changes
   nothing and closes only the offending connection.
   PARTIAL by nature: which Python operations raise, and that everything raised is an Exception caught by the
   catch-all, is knowledge about the interpreter and libraries that the model mirrors; it is tied by bulk adversarial
   input in the check, not proved. *)
From Coq Require Import NArith List.
From SkV Require Import Bytes Wire Framing Dispatch DispatchProofs.
From SkV Require Vlq Codec BoundProofs.
Import ListNotations.

Theorem C20_state_is_handled_prefix : forall max shared handle c s data,
  shared_of shared (on_read max shared handle c s data) =
  frames_partial shared handle (c_hello c) s (snd (fst (receive max (c_recv c) data))).
Proof. exact read_state_is_handled_prefix. Qed.

Theorem C20_invariant_contained : forall max shared handle (I : shared -> Prop),
  (forall s h m b s', I s -> handle s h m b = Some s' -> I s') ->
  forall c s data, I s -> I (shared_of shared (on_read max shared handle c s data)).
Proof.
  intros max shared handle I HI c s data Hs. rewrite read_state_is_handled_prefix. apply frames_partial_ind; assumption.
Qed.

Theorem C20_malformed_dropped : forall max shared handle c s data r' f fs e,
  receive max (c_recv c) data = (r', f :: fs, e) ->
  (dec_frame f = None \/
   (exists h m, dec_frame f = Some (h, m) /\
      ((is_hello m = false /\ c_hello c = false) \/ handle s h m (c_hello c) = None))) ->
  on_read max shared handle c s data = Dropped shared s.
Proof.
  intros max shared handle c s data r' f fs e Hr Hbad. unfold on_read. rewrite Hr. cbn [frames frames_partial].
  destruct Hbad as [Hd | (h & m & Hd & [[Hh Hc] | Hn])]; rewrite Hd.
  - reflexivity.
  - rewrite Hh, Hc. reflexivity.
  - destruct (andb _ _); [reflexivity|]. rewrite Hn. reflexivity.
Qed.

Theorem C20_bad_framing_dropped : forall max shared handle c s data r' err,
  receive max (c_recv c) data = (r', [], Some err) -> on_read max shared handle c s data = Dropped shared s.
Proof. intros max shared handle c s data r' err Hr. unfold on_read. rewrite Hr. reflexivity. Qed.

(* resource bound of decoding: whatever element count a message DECLARES, a successful decode of any list the protocol
   carries (start hashes, inventory items, peers, inputs, outputs, transactions) yields no more elements than bytes were
   received, and a declared count above the remaining input is a decode failure (no work proportional to the number) *)
Theorem C20_protocol_lists_bounded :
  (forall bs l r, Codec.dec_list Wire.dec_hash32 bs = Some (l, r) -> (length l + length r <= length bs)%nat) /\
  (forall bs l r, Codec.dec_list Wire.dec_item bs = Some (l, r) -> (length l + length r <= length bs)%nat) /\
  (forall bs l r, Codec.dec_list Wire.dec_peer bs = Some (l, r) -> (length l + length r <= length bs)%nat) /\
  (forall bs l r, Codec.dec_list Codec.dec_input bs = Some (l, r) -> (length l + length r <= length bs)%nat) /\
  (forall bs l r, Codec.dec_list Codec.dec_output bs = Some (l, r) -> (length l + length r <= length bs)%nat) /\
  (forall bs l r, Codec.dec_list Codec.dec_tx bs = Some (l, r) -> (length l + length r <= length bs)%nat).
Proof. exact BoundProofs.protocol_lists_bounded. Qed.

Theorem C20_declared_count_exceeds_input_rejected : forall bs n r0,
  Vlq.vlq_dec bs = Some (n, r0) -> (N.of_nat (length r0) < n)%N -> Codec.dec_list Wire.dec_hash32 bs = None.
Proof. exact BoundProofs.getblocks_declared_count_exceeds_input_rejected. Qed.

Print Assumptions C20_state_is_handled_prefix.
Print Assumptions C20_invariant_contained.
Print Assumptions C20_malformed_dropped.
Print Assumptions C20_bad_framing_dropped.
Print Assumptions C20_protocol_lists_bounded.
Print Assumptions C20_declared_count_exceeds_input_rejected.
