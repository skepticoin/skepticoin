(* C13 -- pending-transaction pool.  PoolInv: every pending transaction is valid at the current head, no two share an
   output, none occurs twice.  It is preserved by EVERY step of the node model (transaction submissions of any kind,
   block deliveries that extend or reorganise the head, mined blocks), from any state (C13_invariant_step);
   C13_invariant_run carries it, together with Quiescent, along every sequence of events outside bulk download from a
   quiescent state (ok_run); admission requires by-itself validity, validity at the head and no conflict with the
   pool; after a head change the pool is EXACTLY the sub-list of transactions still valid at the new head. *)
From Coq Require Import NArith List.
From SkV Require Import NodeModel NodeProofs.
From SkV Require PoolLink ConcurrencyProofs.
Import ListNotations.

Theorem C13_invariant_step : forall skip tx_valid_at tx_conflict,
  (forall a b, tx_conflict a b = tx_conflict b a) ->
  forall s e s' o, PoolInv tx_valid_at tx_conflict s -> step skip tx_valid_at tx_conflict s e = (s', o) ->
  PoolInv tx_valid_at tx_conflict s'.
Proof. exact pool_inv_step_strong. Qed.

Theorem C13_invariant_run : forall skip tx_valid_at tx_conflict,
  (forall a b, tx_conflict a b = tx_conflict b a) ->
  forall s0 es s o, Quiescent s0 -> PoolInv tx_valid_at tx_conflict s0 -> ok_run skip tx_valid_at tx_conflict s0 es ->
  run skip tx_valid_at tx_conflict s0 es = (s, o) -> Quiescent s /\ PoolInv tx_valid_at tx_conflict s.
Proof. exact invariants_run. Qed.

Theorem C13_admission : forall tx_valid_at tx_conflict s t ok s' o,
  handle_tx tx_valid_at tx_conflict s t ok = (s', o) -> In t (ns_pool s') -> ~ In t (ns_pool s) ->
  ok = true /\ tx_valid_at (ns_head s) t = true /\ Forall (fun x => tx_conflict t x = false) (ns_pool s) /\
  o = [ORelayTx t].
Proof.
  intros tx_valid_at tx_conflict s t ok s' o H Hin Hnin.
  apply handle_tx_inv in H as [(-> & _) | (_ & H1 & H2 & H3 & H4 & _)]; [contradiction|auto].
Qed.

Theorem C13_eviction_exact : forall skip tx_valid_at tx_conflict s b v s' o,
  Quiescent s -> PoolInv tx_valid_at tx_conflict s ->
  has_block (ns_blocks s) (ab_id b) = false -> has_block (ns_blocks s) (ab_prev b) = true ->
  bv_itself v = true -> bv_apply v = true -> bv_instate v = true ->
  handle_block skip tx_valid_at s b v true = (s', o) ->
  ns_pool s' = filter (tx_valid_at (ns_head s')) (ns_pool s) /\
  (forall t, In t (ns_pool s') <-> In t (ns_pool s) /\ tx_valid_at (ns_head s') t = true).
Proof.
  intros skip tx_valid_at tx_conflict s b v s' o Q HP E1 E2 E3 E4 E6.
  rewrite (handle_block_live _ _ _ _ _ _ Q HP), (proj2 (wanted_true s b v)), E6 by auto. intros [= <- _].
  split; [reflexivity|]. intros t. apply filter_In.
Qed.

Theorem C13_tx_relayed_only_on_admission : forall tx_valid_at tx_conflict s t ok s' o,
  handle_tx tx_valid_at tx_conflict s t ok = (s', o) -> o <> [] ->
  ~ In t (ns_pool s) /\ ns_pool s' = ns_pool s ++ [t] /\ o = [ORelayTx t].
Proof.
  intros tx_valid_at tx_conflict s t ok s' o H Ho.
  apply handle_tx_inv in H as [(_ & ->) | (Hn & _ & _ & _ & -> & ->)]; [contradiction|auto].
Qed.

(* the abstract pool instantiated with concrete transactions (validity = in-state validation against the head's unspent set,
   conflict = shared reference): the invariant is preserved by every step, and it yields exactly the pool premises of the
   block-assembly theorem C12_assembly_valid *)
Theorem C13_invariant_step_concrete : forall skip verify tx_of utxo_at s e s' o,
  PoolInv (PoolLink.valid_at_real verify tx_of utxo_at) (PoolLink.conflict_real tx_of) s ->
  step skip (PoolLink.valid_at_real verify tx_of utxo_at) (PoolLink.conflict_real tx_of) s e = (s', o) ->
  PoolInv (PoolLink.valid_at_real verify tx_of utxo_at) (PoolLink.conflict_real tx_of) s'.
Proof. exact PoolLink.pool_inv_step_real. Qed.

(* two threads (network thread admitting transactions, miner thread installing heads) over the shared state and one lock,
   small-step interleaving semantics: when every admission and every head installation is a critical section, every
   complete interleaving equals running SOME merge of the two threads' sections through the sequential handlers, hence
   keeps the invariant; with the validation hoisted out of the critical section an interleaving breaks it *)
Theorem C13_locked_threads_linearise : forall tx_valid_at tx_conflict s f0 f1 l0 l1 c,
  ConcurrencyProofs.csteps tx_valid_at tx_conflict
    (s, None, (f0, ConcurrencyProofs.prog_of l0), (f1, ConcurrencyProofs.prog_of l1)) c ->
  ConcurrencyProofs.finished c ->
  exists l, ConcurrencyProofs.merge l0 l1 l /\
            ConcurrencyProofs.shared c = ConcurrencyProofs.run_secs tx_valid_at tx_conflict s l.
Proof. exact ConcurrencyProofs.locked_threads_linearise. Qed.

Theorem C13_locked_threads_preserve_invariant : forall tx_valid_at tx_conflict,
  (forall a b, tx_conflict a b = tx_conflict b a) ->
  forall s f0 f1 l0 l1 c, PoolInv tx_valid_at tx_conflict s ->
  ConcurrencyProofs.csteps tx_valid_at tx_conflict
    (s, None, (f0, ConcurrencyProofs.prog_of l0), (f1, ConcurrencyProofs.prog_of l1)) c ->
  ConcurrencyProofs.finished c -> PoolInv tx_valid_at tx_conflict (ConcurrencyProofs.shared c).
Proof. exact ConcurrencyProofs.locked_threads_preserve_PoolInv. Qed.

Theorem C13_unlocked_admission_refuted :
  exists (tx_valid_at tx_conflict : N -> N -> bool),
    (forall a b, tx_conflict a b = tx_conflict b a) /\
    exists s t ok blocks head v c,
      PoolInv tx_valid_at tx_conflict s /\
      ConcurrencyProofs.csteps tx_valid_at tx_conflict
             (s, None, (false, ConcurrencyProofs.prog_admit_unlocked t ok), (false, ConcurrencyProofs.prog_set blocks head v)) c /\
      ConcurrencyProofs.finished c /\
      ~ PoolInv tx_valid_at tx_conflict (ConcurrencyProofs.shared c).
Proof. exact ConcurrencyProofs.unlocked_admission_refuted. Qed.

Print Assumptions C13_invariant_step_concrete.
Print Assumptions C13_invariant_step.
Print Assumptions C13_invariant_run.
Print Assumptions C13_admission.
Print Assumptions C13_eviction_exact.
Print Assumptions C13_tx_relayed_only_on_admission.
Print Assumptions C13_locked_threads_linearise.
Print Assumptions C13_locked_threads_preserve_invariant.
Print Assumptions C13_unlocked_admission_refuted.
