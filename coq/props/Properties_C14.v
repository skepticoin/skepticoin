(* C14 -- wallet spend builder, over the model of create_spend_transaction (greedy selection in wallet-key order x
   per-key reference order, used-set committed only on success = the code after the fix in known_findings.json).
   For any used-set, holdings with each reference listed once, amount and fee: on success the recipient gets exactly
   the amount, change is exactly inputs - amount - fee and is present iff non-zero, inputs are distinct, owned
   (listed in the holdings) and not previously used, selected greedily and minimally; insufficient funds is reported
   exactly when the unused holdings total less than amount + fee (amount + fee > 0), and then nothing changes, so a
   later affordable spend succeeds; across any sequence of spends no reference is selected twice.
   The behaviour shipped before the fix violates the failure frame: C14_prefix_poisons_refuted.
   Validity of the signed transaction under consensus rules (signatures verify, size limit) is tied by the check, not
   proved here: it needs verify(sign(m)) = true (ecdsa) and the size premise, see known finding "too many inputs". *)
From Coq Require Import NArith List Lia.
From SkV Require Import WalletModel WalletProofs.
From SkV Require WalletReorgProofs.
Import ListNotations.
Open Scope N_scope.

Theorem C14_success : forall used h value fee sp used',
  NoDup (map fst (all_refs h)) -> create_spend used h value fee = Some (sp, used') ->
  sp_pay sp = value /\ NoDup (sp_inputs sp) /\
  (forall r, In r (sp_inputs sp) -> In r (map fst (all_refs h)) /\ ~ In r used) /\
  (let got := sum_values h (sp_inputs sp) in
   value + fee <= got /\ (sp_change sp = None <-> got = value + fee) /\
   (forall c, sp_change sp = Some c -> c = got - (value + fee) /\ 0 < c) /\
   used' = used ++ sp_inputs sp /\
   (exists rest, map fst (avail used h) = sp_inputs sp ++ rest) /\ sp_inputs sp <> []).
Proof.
  intros used h value fee sp used' Hd H.
  destruct (create_spend_some _ _ _ _ _ _ H) as (s & p & x & rest & Es & Hl & -> & -> & Hge & _).
  destruct (avail_prefix used h s rest Hd Hl) as (Hnd & Hown & Hsum).
  cbn [sp_pay sp_inputs sp_change]. rewrite Hsum.
  split; [reflexivity|]. split; [exact Hnd|]. split; [exact Hown|]. split; [exact Hge|].
  split; [apply change_spec, Hge|]. split; [apply change_spec, Hge|].
  split; [reflexivity|]. split; [exists (map fst rest); rewrite Hl; apply map_app|].
  rewrite Es, map_app. apply not_eq_sym, app_cons_not_nil.
Qed.

(* The next three statements carry the proviso 0 < value + fee.  Without it each is false of the model; the
   counter-examples are in WalletProofs:
   - spend_minimal_refuted: a request for 0 still selects the first available reference, and dropping it leaves 0,
     which is not < 0 (so C14_minimal asks for a positive request or more than one input);
   - spend_failure_frame_refuted: with nothing available the scan of the empty list reports "insufficient" for a
     request of 0, although 0 is not < 0 (spend_failure_frame_exact is the condition without proviso, and the "if"
     direction, spend_failure_frame_if, holds for every request);
   - affordable_after_failed_attempt_refuted: the same empty wallet: a request of 0 is affordable and fails. *)
Theorem C14_minimal : forall used h value fee sp used',
  NoDup (map fst (all_refs h)) -> create_spend used h value fee = Some (sp, used') ->
  0 < value + fee \/ removelast (sp_inputs sp) <> [] ->
  sum_values h (removelast (sp_inputs sp)) < value + fee.
Proof.
  intros used h value fee sp used' Hd H.
  destruct (create_spend_some _ _ _ _ _ _ H) as (s & p & x & rest & -> & Hl & -> & _ & _ & Hmin).
  cbn [sp_inputs]. rewrite map_app. cbn [map]. rewrite removelast_last. intros Hc.
  rewrite <- app_assoc in Hl. destruct (avail_prefix used h p _ Hd Hl) as (_ & _ & ->).
  apply Hmin. destruct Hc as [Hc|Hc]; [left; exact Hc|right]. intros ->. apply Hc. reflexivity.
Qed.

Theorem C14_failure_frame : forall used h value fee, 0 < value + fee ->
  (create_spend used h value fee = None <-> total (avail used h) < value + fee).
Proof.
  intros used h value fee Hp. rewrite spend_failure_frame_exact. split; [|tauto].
  intros [H|H]; [rewrite H; exact Hp|exact H].
Qed.

Theorem C14_affordable_after_failed_attempt : forall used h v1 f1 v2 f2,
  create_spend used h v1 f1 = None -> 0 < v2 + f2 -> total (avail used h) >= v2 + f2 ->
  exists r, create_spend used h v2 f2 = Some r.
Proof.
  (* the failed attempt itself is not used: it returns no used-set, so the next request is judged on the same one *)
  intros used h v1 f1 v2 f2 _ Hp Hge. destruct (create_spend used h v2 f2) as [r|] eqn:E; [exists r; reflexivity|].
  apply C14_failure_frame in E; [lia|exact Hp].
Qed.

(* the ledger view may be a different one at every request (a spend confirmed, un-confirmed again by a fork switch, an
   older state revisited): the wallet's record persists and no reference is ever selected twice *)
Theorem C14_sequences_across_head_changes : forall used reqs,
  (forall i sp r, nth_error (WalletReorgProofs.run_spends_at used reqs) i = Some (Some sp) -> In r (sp_inputs sp) -> ~ In r used) /\
  (forall i j sp1 sp2 r, i <> j -> nth_error (WalletReorgProofs.run_spends_at used reqs) i = Some (Some sp1) ->
     nth_error (WalletReorgProofs.run_spends_at used reqs) j = Some (Some sp2) -> In r (sp_inputs sp1) -> ~ In r (sp_inputs sp2)).
Proof.
  intros used reqs. destruct (WalletReorgProofs.run_spends_at_ordered reqs used) as [H1 H2]. split; [exact H1|].
  intros i j sp1 sp2 r Hij Hi Hj Hr1 Hr2. destruct (PeanoNat.Nat.lt_total i j) as [Hc|[Hc|Hc]]; [|contradiction|].
  - exact (H2 i j sp1 sp2 r Hc Hi Hj Hr1 Hr2).
  - exact (H2 j i sp2 sp1 r Hc Hj Hi Hr2 Hr1).
Qed.

Theorem C14_sequences : forall used h reqs,
  (forall i sp r, nth_error (run_spends used h reqs) i = Some (Some sp) -> In r (sp_inputs sp) -> ~ In r used) /\
  (forall i j sp1 sp2 r, i <> j -> nth_error (run_spends used h reqs) i = Some (Some sp1) ->
     nth_error (run_spends used h reqs) j = Some (Some sp2) -> In r (sp_inputs sp1) -> ~ In r (sp_inputs sp2)).
Proof.
  intros used h reqs. rewrite WalletReorgProofs.run_spends_const. apply C14_sequences_across_head_changes.
Qed.

(* a record pruned to what the current head still lists re-spends an input after a fork switch *)
Theorem C14_pruned_record_reuses_after_fork_switch_refuted : exists h1 h2 h3 sp1 u1 sp2 u2 sp3 u3 r,
  WalletReorgProofs.create_spend_pruning [] h1 5 0 = Some (sp1, u1) /\
  WalletReorgProofs.create_spend_pruning u1 h2 5 0 = Some (sp2, u2) /\
  WalletReorgProofs.create_spend_pruning u2 h3 5 0 = Some (sp3, u3) /\
  In r (sp_inputs sp1) /\ In r (sp_inputs sp3).
Proof.
  exists [(1, [(11, 10); (12, 10); (13, 10)])], [(1, [(12, 10); (13, 10)])], [(1, [(11, 10); (12, 10); (13, 10)])].
  do 7 eexists. split; [vm_compute; reflexivity|]. split; [vm_compute; reflexivity|].
  split; [vm_compute; reflexivity|]. split; cbn; left; reflexivity.
Qed.

Theorem C14_prefix_poisons_refuted : exists used h v1 f1 v2 f2,
  fst (create_spend_prefix used h v1 f1) = None /\ total (avail used h) >= v2 + f2 /\
  (let used' := snd (create_spend_prefix used h v1 f1) in create_spend used' h v2 f2 = None).
Proof.
  exists [], [(1, [(11, 10); (12, 10); (13, 10)])], 100, 0, 5, 0.
  split; [vm_compute; reflexivity|]. split; [vm_compute; discriminate|]. vm_compute. reflexivity.
Qed.

Print Assumptions C14_success.
Print Assumptions C14_minimal.
Print Assumptions C14_failure_frame.
Print Assumptions C14_affordable_after_failed_attempt.
Print Assumptions C14_sequences.
Print Assumptions C14_prefix_poisons_refuted.
Print Assumptions C14_sequences_across_head_changes.
Print Assumptions C14_pruned_record_reuses_after_fork_switch_refuted.
