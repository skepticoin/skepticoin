(* C08 -- block store fidelity, over the model of blockstore.py (chain table, transaction_locator with the
   transaction hash as PRIMARY KEY, insert-or-ignore, all-or-nothing batches, write buffer, read_blocks).
   C08_roundtrip_partial: for every block tree written in any batching in which parents precede children and NO TWO
   WRITTEN BLOCKS SHARE A TRANSACTION ID, reading back yields exactly the written blocks, each with exactly its
   transaction list in order, ordered by height, parents before children.
   The full statement of the property (forks that include the same pending transaction) is REFUTED for the faithful
   model: C08_shared_tx_refuted' / C08_identical_reward_refuted' -- the recorded finding (known_findings.json). *)
From Coq Require Import NArith List Permutation Lia.
From SkV Require Import Store StoreProofs.
Import ListNotations.

Theorem C08_roundtrip_partial' : forall batches s, wf_batchseq batches -> no_shared_tx batches ->
  write_all store_empty batches = Some s ->
  Permutation (read_blocks s) (concat batches) /\ height_sorted (read_blocks s).
Proof. exact C08_roundtrip_partial. Qed.
Theorem C08_parents_first' : forall batches s, wf_batchseq batches -> no_shared_tx batches ->
  heights_consistent batches -> write_all store_empty batches = Some s ->
  forall b p, In b (read_blocks s) -> In p (read_blocks s) -> sb_prev b = sb_id p -> occurs_before p b (read_blocks s).
Proof.
  intros batches s Hwf Hns Hh Hw b p Hb Hp E. destruct (C08_roundtrip_partial _ _ Hwf Hns Hw) as [Hperm Hs].
  apply sorted_occurs_before; auto.
  assert (sb_height b = sb_height p + 1)%N.
  { apply Hh; auto; eapply Permutation_in; eauto. }
  lia.
Qed.
Theorem C08_write_succeeds : forall batches, wf_batchseq batches -> exists s, write_all store_empty batches = Some s.
Proof. exact write_all_succeeds. Qed.
Theorem C08_flush_same_as_write : forall s bs, st_buffer s = [] ->
  flush (fold_left add_to_buffer bs s) =
  match write_blocks s bs with Some s' => Some (mkStore (st_chain s') (st_locator s') []) | None => None end.
Proof. exact flush_spec. Qed.
Theorem C08_shared_tx_refuted' : exists batches, wf_batchseq batches /\
  exists s, write_all store_empty batches = Some s /\ ~ Permutation (read_blocks s) (concat batches).
Proof. exact C08_shared_tx_refuted. Qed.
Theorem C08_identical_reward_refuted' : exists batches, wf_batchseq batches /\
  exists s, write_all store_empty batches = Some s /\ ~ Permutation (read_blocks s) (concat batches) /\
  exists b, In b (concat batches) /\ ~ In (sb_id b) (map sb_id (read_blocks s)).
Proof. exact C08_identical_reward_refuted. Qed.

Print Assumptions C08_roundtrip_partial'.
Print Assumptions C08_parents_first'.
Print Assumptions C08_write_succeeds.
Print Assumptions C08_flush_same_as_write.
Print Assumptions C08_shared_tx_refuted'.
Print Assumptions C08_identical_reward_refuted'.
