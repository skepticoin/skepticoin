(* C09 -- relay path.  Over the node model (NodeModel.handle_block: dedupe, orphan drop, by-itself validation, apply,
   write buffer, in-state validation, rollback, flush, relay; the validators' verdicts are inputs tied to the real
   validators by the harness).  For every state between deliveries outside bulk download (Quiescent) and every
   delivery: only fully valid blocks enter; an accepted block is stored, and relayed exactly when it becomes the head;
   a repeated delivery is a no-op; a rejected block (unknown parent, structural defect, error while applying it, rule
   violation) changes NOTHING -- chain state, store rows, write buffer, pool; over any sequence of deliveries each block
   is relayed at most once. *)
From Coq Require Import NArith List.
From SkV Require Import NodeModel NodeProofs ReplyLabelProofs.
From SkV Require Validate VerdictLink.
Import ListNotations.

Theorem C09_only_valid_enter : forall skip tx_valid_at s b v irt0 s' o i,
  Quiescent s -> handle_block skip tx_valid_at s b v irt0 = (s', o) -> In i (block_ids s') ->
  In i (block_ids s) \/
  (i = ab_id b /\ bv_itself v = true /\ bv_apply v = true /\ (irt0 = true -> bv_instate v = true)).
Proof.
  intros skip tx_valid_at s b v irt0 s' o i (_ & Q2 & _) H. unfold block_ids.
  destruct (handle_block_served _ _ _ _ _ _ _ _ H) as [-> | [-> | (-> & W & I)]].
  - (* unchanged *) now left.
  - (* rolled back: to the validated blocks, which are the blocks of a quiescent state *) rewrite Q2. now left.
  - (* b appended: it was wanted, and validated in state if irt0 *)
    apply wanted_true in W as (_ & _ & E3 & E4). rewrite map_last. intros Hi.
    apply in_app_or in Hi as [Hi|[<-|[]]]; [now left|right]. repeat (split; [easy|]). intros ->. now apply I.
Qed.

Theorem C09_accepted_stored_and_relayed_once : forall skip tx_valid_at tx_conflict s b v s' o,
  Quiescent s -> PoolInv tx_valid_at tx_conflict s ->
  has_block (ns_blocks s) (ab_id b) = false -> has_block (ns_blocks s) (ab_prev b) = true ->
  bv_itself v = true -> bv_apply v = true -> bv_instate v = true ->
  handle_block skip tx_valid_at s b v true = (s', o) ->
  ns_blocks s' = ns_blocks s ++ [b] /\ ns_rows s' = ns_rows s ++ [ab_id b] /\ ns_buffer s' = [] /\ Quiescent s' /\
  ns_pool s' = cleanup tx_valid_at (ns_head s') (ns_pool s) /\
  (o = [ORelayBlock (ab_id b)] /\ ns_head s' = ab_id b \/ o = [] /\ ns_head s' = ns_head s /\ ns_head s' <> ab_id b).
Proof.
  intros skip tx_valid_at tx_conflict s b v s' o Q HP E1 E2 E3 E4 E6.
  rewrite (handle_block_live _ _ _ _ _ _ Q HP), (proj2 (wanted_true s b v)), E6 by auto. intros [= <- <-].
  destruct Q as (Q1 & _). cbn [adopt ns_blocks ns_rows ns_buffer ns_pool ns_head]. rewrite Q1.
  repeat (split; [reflexivity|]). split; [apply adopt_quiescent|]. split; [reflexivity|].
  destruct (N.eqb_spec (new_head (ns_blocks s) (ns_head s) b) (ab_id b)) as [E|E]; [now left|right].
  destruct (new_head_cases (ns_blocks s) (ns_head s) b) as [F|[F _]]; [contradiction|auto].
Qed.

Theorem C09_duplicate_noop : forall skip tx_valid_at s b v irt0,
  has_block (ns_blocks s) (ab_id b) = true -> handle_block skip tx_valid_at s b v irt0 = (s, []).
Proof. intros skip tx_valid_at s b v irt0 E. rewrite handle_block_eq. unfold wanted. now rewrite E. Qed.

Theorem C09_rejected_leaves_no_trace : forall skip tx_valid_at tx_conflict s b v,
  Quiescent s -> PoolInv tx_valid_at tx_conflict s ->
  (has_block (ns_blocks s) (ab_prev b) = false \/ bv_itself v = false \/ bv_apply v = false \/ bv_instate v = false) ->
  has_block (ns_blocks s) (ab_id b) = false ->
  handle_block skip tx_valid_at s b v true = (s, []).
Proof.
  intros skip tx_valid_at tx_conflict s b v Q HP Hrej _.
  apply (handle_block_live_rejected _ _ _ _ _ _ Q HP). right. exact Hrej.
Qed.

Theorem C09_relay_at_most_once : forall skip tx_valid_at tx_conflict,
  (forall a b, tx_conflict a b = tx_conflict b a) ->
  forall s0 es s o, Quiescent s0 -> PoolInv tx_valid_at tx_conflict s0 -> NoDup (block_ids s0) ->
  ok_run skip tx_valid_at tx_conflict s0 es -> run skip tx_valid_at tx_conflict s0 es = (s, o) ->
  (forall i, (count_occ N.eq_dec (relayed_blocks o) i <= 1)%nat) /\
  (forall i, In i (relayed_blocks o) -> ~ In i (block_ids s0) /\ In i (block_ids s)) /\
  Quiescent s /\ PoolInv tx_valid_at tx_conflict s /\ NoDup (block_ids s) /\ incl (block_ids s0) (block_ids s).
Proof. exact relay_at_most_once. Qed.

(* what "the three verdicts are positive" means in terms of the consensus model: full validation succeeds *)
Theorem C09_verdicts_are_full_validation : forall sha scrypt blake verify P s b now,
  (bv_itself (VerdictLink.verdicts sha scrypt blake verify P s b now) = true /\
   bv_apply (VerdictLink.verdicts sha scrypt blake verify P s b now) = true /\
   bv_instate (VerdictLink.verdicts sha scrypt blake verify P s b now) = true)
  <-> exists s', Validate.add_block sha scrypt blake verify P s b now = Validate.Ok s'.
Proof. exact VerdictLink.verdicts_full_validation. Qed.

(* Scope of the statement ("outside bulk download"), made explicit: the proviso is decided by the header field
   in_response_to, which the SENDER writes.  With the label set, in-state validation has no say off the skip heights,
   for every state and block; the closed witnesses show a rule-breaking block becoming the served head of an idle node
   and reaching the store with the next validated block, while the same block without the label leaves no trace.
   (Observation K of DESIGN 11.10 -- outside the statement as read here, therefore not a KNOWN-FINDING.) *)
Theorem C09_scope_reply_label_bypasses_in_state_validation : forall skip tx_valid_at s b v,
  has_block (ns_blocks s) (ab_id b) = false -> has_block (ns_blocks s) (ab_prev b) = true ->
  bv_itself v = true -> bv_apply v = true -> (ab_height b mod skip =? 0)%N = false ->
  has_block (ns_blocks (fst (handle_block skip tx_valid_at s b v false))) (ab_id b) = true.
Proof.
  intros skip tx_valid_at s b v E1 E2 E3 E4 Hs.
  rewrite handle_block_eq, (proj2 (wanted_true s b v)), Hs by auto. cbn [orb fst].
  apply has_block_In, in_map, in_elt.
Qed.

Theorem C09_scope_reply_labelled_invalid_block_enters :
  let '(s', o) := handle_block k_skip k_valid k_s0 k_bad k_bad_verdict false in
  bv_instate k_bad_verdict = false /\ has_block (ns_blocks s') (ab_id k_bad) = true /\ ns_head s' = ab_id k_bad /\ o = [].
Proof. vm_compute. repeat split; reflexivity. Qed.

Theorem C09_scope_same_block_unlabelled_is_refused :
  handle_block k_skip k_valid k_s0 k_bad k_bad_verdict true = (k_s0, []).
Proof. vm_compute. reflexivity. Qed.

Theorem C09_scope_reply_labelled_invalid_block_reaches_the_store :
  let '(s', _) := run k_skip k_valid k_conflict k_s0
                      [EBlock k_bad k_bad_verdict false; EBlock k_good k_good_verdict true] in
  In (ab_id k_bad) (ns_rows s') /\ has_block (ns_valid_blocks s') (ab_id k_bad) = true.
Proof. vm_compute. split; [right; left; reflexivity | reflexivity]. Qed.

Print Assumptions C09_verdicts_are_full_validation.
Print Assumptions C09_only_valid_enter.
Print Assumptions C09_accepted_stored_and_relayed_once.
Print Assumptions C09_duplicate_noop.
Print Assumptions C09_rejected_leaves_no_trace.
Print Assumptions C09_relay_at_most_once.
Print Assumptions C09_scope_reply_label_bypasses_in_state_validation.
Print Assumptions C09_scope_reply_labelled_invalid_block_enters.
Print Assumptions C09_scope_same_block_unlabelled_is_refused.
Print Assumptions C09_scope_reply_labelled_invalid_block_reaches_the_store.
