(* C19 -- peer book and back-off, over the PeerBook model (NetworkManager's two books, my_addresses, hello / peers
   handling, the periodic step, is_time_to_connect, write_peers).
   C19_disjoint: after EVERY event sequence (connects, accepts, greetings, announcements, disconnects incl. double
   disconnects, steps at any times) no key is both connected and waiting for reconnection, so _sanity_check never
   raises.  C19_backoff: an attempt is made only when min(first*2^k, max) has elapsed since the previous one, never beyond
   the failure limit; trace-level: any two consecutive logged attempts for one key are at least wait_for(k) apart
   (for runs in which an already-disconnected OUTGOING object is not disconnected a second time: in the real node
   LocalPeer.disconnect unregisters the socket first, and a second call fails there before touching the book; the
   model-level counter-example without that proviso is kept as PeerBookProofs.C19_backoff_trace_refuted).
   C19_self: a greeting carrying the node's own nonce on an outgoing connection records the address as own, moves
   it to the disconnected book and it is never attempted again.  C19_file: <= cap entries, newest first, no duplicate
   key, order of the others kept.  The shipped constants (regenerated from networking/params.py) are 10 / 1800 / 2880. *)
From Coq Require Import NArith ZArith List.
From SkV Require Import PeerBook PeerBookProofs.
From SkV Require Gen_Params.
Import ListNotations.

Theorem C19_disjoint' : forall fw mw ma evs, sane (s_book (run fw mw ma evs)) = true.
Proof. exact C19_sane_always. Qed.

Theorem C19_backoff' : forall fw mw ma,
  (forall d now t, is_time_to_connect fw mw ma d now = true -> d_last d = Some t -> (t <= now)%N ->
                   (wait_for fw mw (d_ban d) <= now - t)%N) /\
  (forall d now, (ma < d_ban d)%N -> is_time_to_connect fw mw ma d now = false).
Proof. exact C19_backoff. Qed.

Theorem C19_backoff_trace' : forall fw mw ma evs,
  mono_from 0%N evs -> wf_run fw mw ma s_init evs -> Forall stale_ok evs ->
  map fst (s_glog (run fw mw ma evs)) = b_attempts (s_book (run fw mw ma evs)) /\
  forall L1 k t1 n1 L2 t2 n2 L3,
    s_glog (run fw mw ma evs) = L1 ++ (k, t1, n1) :: L2 ++ (k, t2, n2) :: L3 ->
    (forall x, In x L2 -> fst (fst x) <> k) ->
    (wait_for fw mw n2 <= t2 - t1)%N /\ (t1 <= t2)%N /\ (n2 <= ma)%N.
Proof.
  intros fw mw ma evs M W St. destruct (run_Spaced fw mw ma evs M W St) as [Hlog Hsp].
  split; [exact Hlog | exact (Spaced_consecutive fw mw ma _ Hsp)].
Qed.

Theorem C19_self' : forall fw mw ma b c p, In c (b_conn b) -> k_dir (c_key c) = Outgoing ->
  let b' := hello b c p true in
  In (k_host (c_key c), k_port (c_key c)) (b_mine b') /\ find_conn (b_conn b') (c_key c) = None /\
  find_disc (b_disc b') (c_key c) = Some (mkD (c_key c) 0%N (c_last c)) /\
  (forall now d, k_host (d_key d) = k_host (c_key c) -> k_port (d_key d) = k_port (c_key c) ->
                 due fw mw ma b' now d = false) /\
  (forall now fresh t, In (c_key c, t) (b_attempts (step fw mw ma b' now fresh)) -> In (c_key c, t) (b_attempts b')).
Proof. exact C19_self. Qed.

Theorem C19_file' : forall cap db p,
  (length (write_peers cap db p) <= cap)%nat /\ ((0 < cap)%nat -> hd_error (write_peers cap db p) = Some p) /\
  (NoDup db -> NoDup (write_peers cap db p)) /\
  (forall n, cap = S n -> write_peers cap db p = p :: firstn n (filter (fun k => negb (key_eqb k p)) db)) /\
  (forall k, In k (write_peers cap db p) -> k = p \/ In k db).
Proof. exact C19_file. Qed.

Theorem C19_constants : Gen_Params.TIME_TO_SECOND_CONNECTION_ATTEMPT = 10%Z /\
  Gen_Params.MAX_TIME_BETWEEN_CONNECTION_ATTEMPTS = 1800%Z /\ Gen_Params.MAX_CONNECTION_ATTEMPTS = 2880%Z /\
  (forall k, wait_for 10 1800 k = N.min (10 * 2 ^ k) 1800)%N.
Proof. repeat split; try reflexivity. Qed.

Print Assumptions C19_disjoint'.
Print Assumptions C19_backoff'.
Print Assumptions C19_backoff_trace'.
Print Assumptions C19_self'.
Print Assumptions C19_file'.
Print Assumptions C19_constants.
