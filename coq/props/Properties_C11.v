(* C11 -- stream framing is independent of transport fragmentation.
   The receiver (model of MessageReceiver.receive) refines the grammar of the whole stream for EVERY way of cutting
   the stream into reads; unbounded in stream length and number/position of cuts. *)
From Coq Require Import NArith List.
From SkV Require Import Bytes Wire Framing FramingProofs SenderProofs EndToEndProofs.
Import ListNotations.
Open Scope N_scope.

Theorem C11_spec : forall max chunks, Forall bytes_wf chunks ->
  let '(fs, e, st) := feed max r_init chunks in
  let '(fs', e', rest) := parse_stream max (concat chunks) in
  fs = fs' /\ e = e' /\ (e = None -> pending st = rest).
Proof. exact feed_spec. Qed.

Theorem C11_chunking : forall max c1 c2, Forall bytes_wf c1 -> Forall bytes_wf c2 -> concat c1 = concat c2 ->
  fst (fst (feed max r_init c1)) = fst (fst (feed max r_init c2)) /\
  snd (fst (feed max r_init c1)) = snd (fst (feed max r_init c2)).
Proof.
  intros max c1 c2 H1 H2 Hc. apply (feed_init max) in H1 as [E1 _], H2 as [E2 _]. rewrite E1, E2, Hc. split; reflexivity.
Qed.

(* sender and receiver composed: the payloads handed to send_message on one side are exactly the frames delivered to
   handle_message_data on the other, in order, for EVERY fragmentation of the stream; a connection observed part-way
   has delivered a prefix of them and refused nothing.  The size premise is necessary ([C11_oversize_refused]). *)
Theorem C11_send_receive : forall max ps chunks, Forall (sendable max) ps -> Forall bytes_wf chunks ->
  concat chunks = send_stream ps ->
  fst (fst (feed max r_init chunks)) = ps /\
  snd (fst (feed max r_init chunks)) = None /\
  pending (snd (feed max r_init chunks)) = [].
Proof. exact send_receive. Qed.

Theorem C11_send_receive_prefix : forall max ps chunks later, Forall (sendable max) ps -> Forall bytes_wf chunks ->
  concat chunks ++ later = send_stream ps ->
  snd (fst (feed max r_init chunks)) = None /\
  exists more, fst (fst (feed max r_init chunks)) ++ more = ps.
Proof. exact send_receive_prefix. Qed.

Theorem C11_oversize_refused : forall max p b, max < N.of_nat (length p) -> N.of_nat (length p) < 2 ^ 32 ->
  parse_stream max (send_frame p ++ b) = ([], Some TooLong, send_frame p ++ b).
Proof.
  intros max p b Hmax H32. rewrite parse_send_frame by exact H32. apply N.ltb_lt in Hmax. rewrite Hmax. reflexivity.
Qed.

(* the sender's state machine (send_buffer, send_backlog, writability registration) for EVERY interleaving of
   send_message calls and socket writes of any sizes: what the socket has taken is a prefix of the stream of everything
   sent; once the sender stops asking for writability nothing is left behind; a socket taking >= 1 byte makes progress;
   composed with the receiver under every re-fragmentation. *)
Theorem C11_sender_drained : forall ops, s_writing (s_run ops) = false ->
  s_written (s_run ops) = send_stream (sent_of ops) /\ s_buf (s_run ops) = [] /\ s_backlog (s_run ops) = [].
Proof. exact sender_drained. Qed.

Theorem C11_sender_progress : forall ops n, (1 <= n)%nat -> s_buf (s_run ops) <> [] ->
  (length (s_written (s_run ops)) < length (s_written (s_can_send (s_run ops) n)))%nat.
Proof. intros ops. apply s_can_send_progress. Qed.

Theorem C11_sender_receiver_prefix : forall max ops chunks,
  Forall (sendable max) (sent_of ops) -> Forall bytes_wf chunks -> concat chunks = s_written (s_run ops) ->
  snd (fst (feed max r_init chunks)) = None /\
  exists more, fst (fst (feed max r_init chunks)) ++ more = sent_of ops.
Proof. exact sender_receiver_prefix. Qed.

Theorem C11_sender_receiver_complete : forall max ops chunks,
  Forall (sendable max) (sent_of ops) -> Forall bytes_wf chunks -> concat chunks = s_written (s_run ops) ->
  s_writing (s_run ops) = false ->
  fst (fst (feed max r_init chunks)) = sent_of ops /\
  snd (fst (feed max r_init chunks)) = None /\
  pending (snd (feed max r_init chunks)) = [].
Proof.
  intros max ops chunks Hs Hc E Hw. destruct (sender_drained ops Hw) as [Hd _]. rewrite Hd in E.
  exact (send_receive max (sent_of ops) chunks Hs Hc E).
Qed.

(* wire codec + sender + receiver: the (header, message) pairs handed to send_message are the pairs handed to
   handle_message_received, in order ("the sequence of protocol messages a node extracts"), for every fragmentation;
   with the sender's state machine in between and observed at any moment, a correctly decoded prefix of them. *)
Theorem C11_messages_end_to_end : forall max hms chunks, Forall (sendable_msg max) hms -> Forall bytes_wf chunks ->
  concat chunks = send_stream (map payload_of hms) ->
  map dec_frame (fst (fst (feed max r_init chunks))) = map Some hms /\
  snd (fst (feed max r_init chunks)) = None /\
  pending (snd (feed max r_init chunks)) = [].
Proof.
  intros max hms chunks Hs Hc E. destruct (send_receive max _ chunks (sendable_payloads max hms Hs) Hc E) as (-> & F).
  split; [apply (map_dec_frame max), Hs | exact F].
Qed.

Theorem C11_messages_end_to_end_prefix : forall max ops hms chunks, sent_of ops = map payload_of hms ->
  Forall (sendable_msg max) hms -> Forall bytes_wf chunks -> concat chunks = s_written (s_run ops) ->
  snd (fst (feed max r_init chunks)) = None /\
  exists k, map dec_frame (fst (fst (feed max r_init chunks))) = map Some (firstn k hms).
Proof.
  intros max ops hms chunks Eo Hs Hc E. pose proof (sendable_payloads max hms Hs) as Hp. rewrite <- Eo in Hp.
  destruct (sender_receiver_prefix max ops chunks Hp Hc E) as (F1 & more & F2). rewrite Eo in F2.
  split; [exact F1 | exact (dec_frame_prefix max hms _ more Hs F2)].
Qed.

Example C11_example :
  feed 100 r_init [[77;65]; [74;73;0;0;0;3;1;2]; [3;77;65;74;73;0;0;0;2;9;8]] = ([[1;2;3];[9;8]], None, r_init).
Proof. vm_compute. reflexivity. Qed.
Example C11_example_refused :
  fst (feed 100 r_init [[77;65;74;73;0;0;0;1;5;77]; [65;74;74]]) = ([[5]], Some BadMagic).
Proof. vm_compute. reflexivity. Qed.

Print Assumptions C11_spec.
Print Assumptions C11_chunking.
Print Assumptions C11_send_receive.
Print Assumptions C11_send_receive_prefix.
Print Assumptions C11_oversize_refused.
Print Assumptions C11_sender_drained.
Print Assumptions C11_sender_progress.
Print Assumptions C11_sender_receiver_prefix.
Print Assumptions C11_sender_receiver_complete.
Print Assumptions C11_messages_end_to_end.
Print Assumptions C11_messages_end_to_end_prefix.
