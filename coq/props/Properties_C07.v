(* C07 -- canonical identity: one encoding per value, id is the hash of it.
   Consensus objects: round trip for every well-formed value (wf = what struct.pack and the constructors accept) and
   canonicity for every byte string; ids cached at decode time equal the hash of the canonical encoding.
   Wire messages (header + the seven messages): round trip for every well-formed message, decoded messages are well
   formed and re-encodable; their decoders ignore the version byte and reserved padding by design, so canonicity holds
   only outside header/hello (recorded: C07_wire_header_not_canonical). *)
From Coq Require Import NArith List.
From SkV Require Import Bytes Vlq VlqProofs Codec CodecProofs Wire WireProofs.
Import ListNotations.
Open Scope N_scope.

Theorem C07_vlq_roundtrip : forall i rest, vlq_dec (vlq_enc i ++ rest) = Some (i, rest).
Proof. exact vlq_roundtrip. Qed.
Theorem C07_vlq_canonical : forall bs v rest, bytes_wf bs -> vlq_dec bs = Some (v, rest) -> vlq_enc v ++ rest = bs.
Proof. exact vlq_canonical. Qed.
(* the decoder as shipped before the fix (no canonicity check) violates the property: the finding, as a theorem *)
Theorem C07_vlq_lenient_refuted :
  exists bs v rest, bytes_wf bs /\ vlq_dec_lenient bs = Some (v, rest) /\ vlq_enc v ++ rest <> bs.
Proof. exact vlq_canonical_refuted. Qed.

Theorem C07_roundtrip_tx : forall t r, wf_tx t = true -> dec_tx (enc_tx t ++ r) = Some (t, r).
Proof. exact (ok_rt tx_codec). Qed.
Theorem C07_roundtrip_header : forall h r, wf_header h = true -> dec_header (enc_header h ++ r) = Some (h, r).
Proof. exact (ok_rt header_codec). Qed.
Theorem C07_roundtrip_block : forall b r, wf_block b = true -> dec_block (enc_block b ++ r) = Some (b, r).
Proof. exact (ok_rt block_codec). Qed.
Theorem C07_roundtrip_parts :
  (forall x r, wf_outref x = true -> dec_outref (enc_outref x ++ r) = Some (x, r)) /\
  (forall x r, wf_sig x = true -> dec_sig (enc_sig x ++ r) = Some (x, r)) /\
  (forall x r, len_is 64 x = true -> dec_pk (enc_pk x ++ r) = Some (x, r)) /\
  (forall x r, wf_input x = true -> dec_input (enc_input x ++ r) = Some (x, r)) /\
  (forall x r, wf_output x = true -> dec_output (enc_output x ++ r) = Some (x, r)) /\
  (forall x r, wf_evidence x = true -> dec_evidence (enc_evidence x ++ r) = Some (x, r)) /\
  (forall x r, wf_summary x = true -> dec_summary (enc_summary x ++ r) = Some (x, r)).
Proof.
  repeat split; [exact (ok_rt outref_codec) | exact (ok_rt sig_codec) | exact (ok_rt pk_codec)
    | exact (ok_rt input_codec) | exact (ok_rt output_codec) | exact (ok_rt evidence_codec)
    | exact (ok_rt summary_codec)].
Qed.

Theorem C07_canonical_tx : forall bs t r, bytes_wf bs -> dec_tx bs = Some (t, r) -> enc_tx t ++ r = bs.
Proof. exact (ok_canonical tx_codec). Qed.
Theorem C07_canonical_header : forall bs h r, bytes_wf bs -> dec_header bs = Some (h, r) -> enc_header h ++ r = bs.
Proof. exact (ok_canonical header_codec). Qed.
Theorem C07_canonical_block : forall bs b r, bytes_wf bs -> dec_block bs = Some (b, r) -> enc_block b ++ r = bs.
Proof. exact (ok_canonical block_codec). Qed.
Theorem C07_canonical_parts :
  (forall bs x r, bytes_wf bs -> dec_outref bs = Some (x, r) -> enc_outref x ++ r = bs) /\
  (forall bs x r, bytes_wf bs -> dec_sig bs = Some (x, r) -> enc_sig x ++ r = bs) /\
  (forall bs x r, bytes_wf bs -> dec_pk bs = Some (x, r) -> enc_pk x ++ r = bs) /\
  (forall bs x r, bytes_wf bs -> dec_input bs = Some (x, r) -> enc_input x ++ r = bs) /\
  (forall bs x r, bytes_wf bs -> dec_output bs = Some (x, r) -> enc_output x ++ r = bs) /\
  (forall bs x r, bytes_wf bs -> dec_evidence bs = Some (x, r) -> enc_evidence x ++ r = bs) /\
  (forall bs x r, bytes_wf bs -> dec_summary bs = Some (x, r) -> enc_summary x ++ r = bs).
Proof.
  repeat split; [exact (ok_canonical outref_codec) | exact (ok_canonical sig_codec) | exact (ok_canonical pk_codec)
    | exact (ok_canonical input_codec) | exact (ok_canonical output_codec) | exact (ok_canonical evidence_codec)
    | exact (ok_canonical summary_codec)].
Qed.
(* whatever a decoder returns is a value the encoder accepts *)
Theorem C07_decoded_wf_block : forall bs b r, bytes_wf bs -> dec_block bs = Some (b, r) -> wf_block b = true /\ bytes_wf r.
Proof. exact (ok_wf block_codec). Qed.
Theorem C07_decoded_wf_tx : forall bs t r, bytes_wf bs -> dec_tx bs = Some (t, r) -> wf_tx t = true /\ bytes_wf r.
Proof. exact (ok_wf tx_codec). Qed.

(* ids: the id cached from the consumed bytes IS the hash of the canonical encoding, for any hash function *)
Theorem C07_id_tx : forall sha bs t id r, bytes_wf bs -> dec_tx_id sha bs = Some (t, id, r) -> id = tx_id sha t.
Proof. exact dec_tx_id_canonical. Qed.
Theorem C07_id_block : forall sha bs b id r, bytes_wf bs -> dec_block_id sha bs = Some (b, id, r) -> id = block_id sha b.
Proof. exact dec_block_id_canonical. Qed.
(* one value, one encoding: encoders are injective on well-formed values *)
Theorem C07_enc_injective :
  (forall a b, wf_tx a = true -> wf_tx b = true -> enc_tx a = enc_tx b -> a = b) /\
  (forall a b, wf_header a = true -> wf_header b = true -> enc_header a = enc_header b -> a = b) /\
  (forall a b, wf_block a = true -> wf_block b = true -> enc_block a = enc_block b -> a = b).
Proof. repeat split; [exact (ok_inj tx_codec) | exact (ok_inj header_codec) | exact (ok_inj block_codec)]. Qed.

Theorem C07_roundtrip_wire_msg : forall m r, wf_msg m = true -> dec_msg (enc_msg m ++ r) = Some (m, r).
Proof. exact (rt_rt msg_codec). Qed.
Theorem C07_roundtrip_wire_header : forall h r, wf_msg_header h = true -> dec_msg_header (enc_msg_header h ++ r) = Some (h, r).
Proof. exact (rt_rt msg_header_codec). Qed.
Theorem C07_roundtrip_frame : forall h m trailing, wf_msg_header h = true -> wf_msg m = true ->
  dec_frame (enc_msg_header h ++ enc_msg m ++ trailing) = Some (h, m).
Proof. exact dec_frame_roundtrip. Qed.
Theorem C07_wire_decoded_wf : forall bs m r, bytes_wf bs -> dec_msg bs = Some (m, r) -> wf_msg m = true /\ bytes_wf r.
Proof. exact (rt_wf msg_codec). Qed.
Theorem C07_wire_header_not_canonical : exists bs h r, bytes_wf bs /\ dec_msg_header bs = Some (h, r) /\ enc_msg_header h ++ r <> bs.
Proof. exact dec_msg_header_ignores_version. Qed.

Print Assumptions C07_roundtrip_wire_msg.
Print Assumptions C07_roundtrip_wire_header.
Print Assumptions C07_roundtrip_frame.
Print Assumptions C07_wire_decoded_wf.
Print Assumptions C07_vlq_roundtrip.
Print Assumptions C07_vlq_canonical.
Print Assumptions C07_vlq_lenient_refuted.
Print Assumptions C07_roundtrip_tx.
Print Assumptions C07_roundtrip_header.
Print Assumptions C07_roundtrip_block.
Print Assumptions C07_roundtrip_parts.
Print Assumptions C07_canonical_tx.
Print Assumptions C07_canonical_header.
Print Assumptions C07_canonical_block.
Print Assumptions C07_canonical_parts.
Print Assumptions C07_decoded_wf_block.
Print Assumptions C07_decoded_wf_tx.
Print Assumptions C07_id_tx.
Print Assumptions C07_id_block.
Print Assumptions C07_enc_injective.
