(* C15 -- wallet keys and file, over the model of wallet.py key management and save_wallet.
   C15_partition: annotated and unused keys stay disjoint subsets of the key pairs, without repetition, under generate
   (fresh key), hand-out (while unused keys remain) and restore of an annotated key.
   C15_no_reuse: over every sequence of hand-outs, generates and restores, a key handed out (while unused keys remain)
   is not handed out again unless it was restored in between.
   WalletProofs.exhausted_restore_refuted: the recorded finding -- after the exhausted-wallet fallback returned an
   already published key, restoring it puts it back among the unused keys and it is handed out again.
   C15_atomic: for every old/new content, every chunking of the write and EVERY prefix of the save operations the
   target file holds the old or the new content, the new one exactly when all operations completed; the in-place
   alternative is refuted.  (Process-crash model of open/write/close/rename; rename atomicity of the OS is assumed.)
   The JSON round trip of dump/load is tied by the check (json is trusted), see DESIGN.md. *)
From Coq Require Import NArith List.
From SkV Require Import WalletModel WalletProofs.
Import ListNotations.

Theorem C15_partition : forall w, WInv w ->
  (forall k, ~ In k (w_keys w) -> WInv (generate w k)) /\
  (forall a c, w_unused w <> [] -> WInv (snd (hand_out w a c))) /\
  (forall k, In k (map fst (w_annot w)) -> exists w', restore w k = Some w' /\ WInv w').
Proof.
  intros w HI. split; [intros k Hk; apply generate_WInv; assumption|].
  split; [intros a c _; apply hand_out_WInv; exact HI|].
  intros k Hk. pose proof (proj2 (restore_spec w k _) (conj Hk eq_refl)) as E.
  eexists. split; [exact E|exact (restore_WInv w k _ HI E)].
Qed.

Theorem C15_no_reuse : forall ops w (i j : nat) k, WInv w -> gens_fresh w ops -> (i < j)%nat ->
  nth_error (wrun w ops) i = Some (EHanded k) -> nth_error (wrun w ops) j = Some (EHanded k) ->
  exists m, (i < m < j)%nat /\ nth_error (wrun w ops) m = Some (ERestored k).
Proof. exact no_reuse. Qed.

Theorem C15_atomic : forall side target chunks f, side <> target ->
  let ops := save_ops side target chunks in
  (forall n, fs_get (run_ops f (firstn n ops)) target = fs_get f target \/
             fs_get (run_ops f (firstn n ops)) target = Some (concat chunks)) /\
  fs_get (run_ops f ops) target = Some (concat chunks) /\
  (forall n, (n < length ops)%nat -> fs_get (run_ops f (firstn n ops)) target = fs_get f target).
Proof.
  intros side target chunks f Hne ops.
  split; [|split; [apply save_complete|intros n; apply save_proper_prefix; exact Hne]].
  intros n. destruct (PeanoNat.Nat.lt_ge_cases n (length ops)) as [Hn|Hn].
  - left. apply save_proper_prefix; assumption.
  - right. rewrite firstn_all2 by exact Hn. apply save_complete.
Qed.

Theorem C15_inplace_refuted : exists f target chunks old n,
  fs_get f target = Some old /\
  fs_get (run_ops f (firstn n (inplace_ops target chunks))) target <> Some old /\
  fs_get (run_ops f (firstn n (inplace_ops target chunks))) target <> Some (concat chunks) /\
  fs_get (run_ops f (inplace_ops target chunks)) target = Some (concat chunks).
Proof.
  exists [(1, [7])], 1, [[8]; [9]], [7], 2%nat.
  vm_compute. repeat split; discriminate.
Qed.

Print Assumptions C15_partition.
Print Assumptions C15_no_reuse.
Print Assumptions C15_atomic.
Print Assumptions C15_inplace_refuted.
