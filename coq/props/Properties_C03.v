(* C03 -- the ledger state at a block is a function of that block's chain alone.
   For every hash function, every block tree and every parent-before-child arrival order (arrivals l s):
   the unspent set stored at a block is the replay of its ancestors from genesis; it does not depend on the arrival
   order, on competing forks, or on later additions.  (Per-key balances: C03_balances below, from BalanceProofs.)
   "A snapshot obtained earlier is never changed" is a tie obligation (object digests), since a functional model
   cannot mutate its argument; what IS proved is C03_add_monotone (add_nv_frame): later arrivals leave every earlier
   entry untouched. *)
From stdpp Require Import gmap.
From Coq Require Import NArith.
From SkV Require Import Bytes Codec Ledger ChainState ChainDefs ReplayProofs BalanceProofs.

Theorem C03_utxo_replay : forall sha l s ch b, arrivals sha l s -> stored sha s b -> path sha s ch b ->
  replay_utxo sha ∅ ch = cs_utxo s !! block_id sha b /\ is_Some (cs_utxo s !! block_id sha b).
Proof. exact utxo_replay. Qed.
Theorem C03_chain_is_path : forall sha l s b, arrivals sha l s -> stored sha s b ->
  exists ch, chain_to s (block_id sha b) = Some ch /\ path sha s ch b.
Proof.
  intros sha l s b Harr. exact (chain_to_path sha l s b (arrivals_inv sha l s Harr)).
Qed.
Theorem C03_path_unique : forall sha s ch ch' b, path sha s ch b -> path sha s ch' b -> ch = ch'.
Proof. exact path_unique. Qed.
Theorem C03_order_independent : forall sha l1 l2 s1 s2, arrivals sha l1 s1 -> arrivals sha l2 s2 -> l1 ≡ₚ l2 ->
  cs_blocks s1 = cs_blocks s2 /\ cs_utxo s1 = cs_utxo s2 /\ (forall h, balances_at sha s1 h = balances_at sha s2 h).
Proof. exact order_independent. Qed.
Theorem C03_add_monotone : forall sha l s b s', arrivals sha l s -> admissible sha s b -> add_nv sha s b = Some s' ->
  forall h, is_Some (cs_blocks s !! h) ->
  cs_blocks s' !! h = cs_blocks s !! h /\ cs_utxo s' !! h = cs_utxo s !! h /\ cs_byheight s' !! h = cs_byheight s !! h.
Proof. intros sha l s b s' _. apply add_nv_frame. Qed.

(* per-key balances = the unspent set grouped by key (value = sum, references = exactly the references), for every
   chain whose created output keys are fresh (transaction ids do not repeat while an output is unspent: in the real
   system a consequence of collision-freedom of sha256d plus reward-height uniqueness; kept as an explicit premise,
   and necessary: BalanceProofs.Example.freshness_needed) *)
Theorem C03_balances : forall sha chain u p, fresh_chain sha chain -> replay sha ∅ ∅ chain = Some (u, p) ->
  consistent u p.
Proof. exact balances_consistent_fresh_only. Qed.
Theorem C03_balance_refs_nodup : forall sha chain u p, well_formed_chain sha chain ->
  replay sha ∅ ∅ chain = Some (u, p) -> forall pk v refs, p !! pk = Some (v, refs) -> NoDup refs.
Proof.
  intros sha chain u p Hw Hr pk v refs Hp. exact (consistent_NoDup _ _ _ _ _ (balances_consistent sha _ _ _ Hw Hr) Hp).
Qed.

Print Assumptions C03_utxo_replay.
Print Assumptions C03_balances.
Print Assumptions C03_chain_is_path.
Print Assumptions C03_path_unique.
Print Assumptions C03_order_independent.
Print Assumptions C03_add_monotone.
