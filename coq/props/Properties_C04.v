(* C04 -- fork choice.  For every hash function, every block tree and every parent-before-child arrival order
   (arrivals l s): the head is the earliest-arrived block among those of greatest height; the reported tips are
   exactly the stored blocks without stored children; the by-height index at every block lists exactly that block's
   ancestors and itself; forks() returns the last common ancestor with the active chain. *)
From stdpp Require Import gmap.
From Coq Require Import NArith.
From SkV Require Import Bytes Codec Ledger ChainState ChainDefs ForkChoiceProofs.
From SkV Require NodeModel StaleMinerProofs.

Theorem C04_head : forall sha l s, arrivals sha l s -> l <> [] ->
  exists hb, cs_cur s = Some (block_id sha hb) /\ stored sha s hb /\
    (forall b, stored sha s b -> (b_height b <= b_height hb)%N) /\
    (forall b, stored sha s b -> b_height b = b_height hb -> block_id sha b <> block_id sha hb ->
       exists i j, arrival_index sha l (block_id sha hb) = Some i /\ arrival_index sha l (block_id sha b) = Some j /\
                   (i < j)%nat).
Proof. exact fc_head. Qed.

Theorem C04_tips : forall sha l s, arrivals sha l s ->
  forall h, h ∈ dom (cs_heads s) <-> exists b, stored sha s b /\ block_id sha b = h /\ ~ has_child sha s b.
Proof.
  intros sha l s HA h. rewrite elem_of_dom.
  split; intros [t Ht]; exists t; apply (fc_tips_lookup_iff sha _ _ _ _ HA), Ht.
Qed.

Theorem C04_index : forall sha l s b, arrivals sha l s -> stored sha s b ->
  exists m, cs_byheight s !! block_id sha b = Some m /\
            forall k a, m !! k = Some a <-> (ancestor_or_self sha s a b /\ b_height a = k).
Proof. intros sha l s b HA. exact (i_index _ _ _ (arrivals_Inv sha _ _ HA) b). Qed.

Theorem C04_forks_lca : forall sha l s h t c main, arrivals sha l s ->
  cs_heads s !! h = Some t -> cs_cur s = Some c -> cs_byheight s !! c = Some main ->
  exists a, lca_with_main sha (S (size (cs_blocks s))) s main t = Some a /\
    ancestor_or_self sha s a t /\
    (exists hb, stored sha s hb /\ block_id sha hb = c /\ ancestor_or_self sha s a hb) /\
    forall x hb, block_id sha hb = c -> stored sha s hb -> ancestor_or_self sha s x t ->
                 ancestor_or_self sha s x hb -> (b_height x <= b_height a)%N.
Proof.
  intros sha l s h t c main HA Ht Hc Hm. pose proof (arrivals_Inv sha _ _ HA) as HI.
  apply (i_heads _ _ _ HI) in Ht as (St & _ & _).
  pose proof (i_cur _ _ _ HI) as HC. unfold head_ok in HC. rewrite Hc in HC. destruct HC as (hb & -> & Shb & _ & _).
  destruct (lca_walk sha _ _ _ _ HI Shb Hm (S (size (cs_blocks s))) t St) as (a & Ea & Hat & Hah & Hmax).
  { apply le_S, (ReplayProofs.inv_size _ _ _ (i_inv0 _ _ _ HI) t St). }
  exists a. split; [exact Ea|]. split; [exact Hat|]. split; [exists hb; auto|].
  intros x hb' Eid Shb' Hxt Hxh. rewrite (ReplayProofs.stored_inj sha s hb' hb Shb' Shb Eid) in Hxh. auto.
Qed.

Theorem C04_ids : forall sha l s h b, arrivals sha l s -> cs_blocks s !! h = Some b -> h = block_id sha b.
Proof. intros sha l s h b HA. exact (ReplayProofs.inv_id _ _ _ (ReplayProofs.arrivals_inv sha _ _ HA) h b). Qed.

Example C04_example_head_first_seen :
  cs_cur ForkChoiceProofs.Example.s3 = Some (block_id ForkChoiceProofs.Example.sha ForkChoiceProofs.Example.c1).
Proof. exact ForkChoiceProofs.Example.ex_head. Qed.

(* node level (known finding J): arrivals reach the served state from two threads.  The node model's found-block handler
   adds the found block to the CURRENT served state and never loses a served block; the shipped miner thread adds it to the
   snapshot of its last work request -- the two agree when nothing was adopted in between, and otherwise an adopted block
   vanishes and an equally high, later-arrived block becomes the head *)
Theorem C04_found_block_keeps_served_blocks : forall tx_valid_at s b valid s' o x,
  NodeModel.handle_mined tx_valid_at s b valid = (s', o) -> List.In x (NodeModel.ns_blocks s) -> List.In x (NodeModel.ns_blocks s').
Proof. exact StaleMinerProofs.handle_mined_keeps_blocks. Qed.

Theorem C04_snapshot_handler_agrees_without_adoption : forall tx_valid_at s b valid,
  StaleMinerProofs.handle_mined_snapshot tx_valid_at (NodeModel.ns_blocks s) (NodeModel.ns_head s) s b valid =
  NodeModel.handle_mined tx_valid_at s b valid.
Proof. exact StaleMinerProofs.snapshot_current_agrees. Qed.

Theorem C04_stale_snapshot_drops_adopted_block_refuted :
  exists (tx_valid_at : N -> N -> bool) snap_blocks snap_head s b s' o adopted,
    List.In adopted (NodeModel.ns_blocks s) /\ NodeModel.ns_head s = NodeModel.ab_id adopted /\
    NodeModel.ab_height adopted = NodeModel.ab_height b /\
    StaleMinerProofs.handle_mined_snapshot tx_valid_at snap_blocks snap_head s b true = (s', o) /\
    ~ List.In adopted (NodeModel.ns_blocks s') /\ NodeModel.ns_head s' = NodeModel.ab_id b.
Proof. exact StaleMinerProofs.stale_snapshot_drops_adopted_block_refuted. Qed.

Print Assumptions C04_head.
Print Assumptions C04_tips.
Print Assumptions C04_index.
Print Assumptions C04_forks_lca.
Print Assumptions C04_ids.
Print Assumptions C04_found_block_keeps_served_blocks.
Print Assumptions C04_snapshot_handler_agrees_without_adoption.
Print Assumptions C04_stale_snapshot_drops_adopted_block_refuted.
