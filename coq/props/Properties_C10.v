(* C10 -- synchronisation converges and relay terminates.  PARTIAL (see DESIGN.md section 8).
   Proved (for all chains, locators and batch sizes): the locator announces exactly head-k (k < 10) and head-k^2
   (4 <= k < 64), strictly descending; the get-blocks server replies with at most `batch` CONSECUTIVE ids of its active
   chain whose first id's parent is genesis or an id the requester announced and that lies on the active chain (so a
   FIFO requester always knows the parent of each delivered block); the FIRST announced id that the server does not
   skip decides: if it is on the active chain strictly below the head, the reply is non-empty and strictly extends it
   (progress; for a later matching id this fails unless the announced heights descend, SyncProofs.serve_progress_refuted
   and serve_progress_sorted); if the server knows it at or above its head height, the reply is empty (also when it is a
   side-branch tip: recorded as SyncProofs.side_branch_tip_silences since it matters for convergence between
   equal-height forks); each node relays a block at most once (C10_relay_at_most_once = C09) and a transaction only
   when its pool accepts it (C13).
   NOT proved: that every interleaving of deliveries and timer steps reaches the converged state (needs fairness and
   the timer gating); explored by the check on 2-3 real nodes under seeded schedulers. *)
From Coq Require Import NArith List Sorted.
From SkV Require Import Sync SyncProofs SyncRoundProofs CatchUpProofs NodeModel NodeProofs.
Import ListNotations.
Open Scope N_scope.

Theorem C10_locator_exact : forall x h, In x (recent_heights h) <->
  (exists k, k < 10 /\ k <= h /\ x = h - k) \/ (exists k, (4 <= k /\ k < 64) /\ k * k <= h /\ x = h - k * k).
Proof. exact recent_heights_exact. Qed.
Theorem C10_locator_sorted : forall h, StronglySorted (fun a b => b < a) (recent_heights h).
Proof. exact recent_heights_sorted. Qed.

Theorem C10_serve_consecutive : forall main height_of, main <> [] -> forall batch starts ids,
  serve batch main height_of starts = ids ->
  exists start, (start = 1 \/ (exists s hs, In s starts /\ height_of s = Some hs /\ main_at main hs = Some s /\ start = hs + 1)) /\
    ids = firstn (length ids) (skipn (N.to_nat start) main) /\ (length ids <= N.to_nat batch)%nat.
Proof. exact serve_consecutive. Qed.

Theorem C10_serve_parent_known : forall main height_of, main <> [] -> forall batch starts first rest,
  serve batch main height_of starts = first :: rest ->
  let start := start_of main height_of starts in
  1 <= start /\ main_at main start = Some first /\
  (start = 1 \/ (exists p, In p starts /\ height_of p = Some (start - 1) /\ main_at main (start - 1) = Some p)).
Proof. exact serve_parent_known. Qed.

Theorem C10_serve_progress : forall main height_of, main <> [] ->
  (forall i h, nth_error main (N.to_nat h) = Some i -> height_of i = Some h) ->
  forall batch prefix s suffix hs, 0 < batch -> Forall (skippable main height_of) prefix ->
  height_of s = Some hs -> main_at main hs = Some s -> hs < head_height main ->
  let ids := serve batch main height_of (prefix ++ s :: suffix) in
  ids <> [] /\ start_of main height_of (prefix ++ s :: suffix) = hs + 1 /\
  height_of (last ids 0) = Some (N.min (hs + batch) (head_height main)) /\
  main_at main (N.min (hs + batch) (head_height main)) = Some (last ids 0) /\
  hs < N.min (hs + batch) (head_height main).
Proof.
  intros main height_of Hne Hcons batch prefix s suffix hs Hb HF Hh Hm Hlt ids.
  assert (E : scan main height_of (prefix ++ s :: suffix) = Some (Some (hs + 1)))
    by (apply scan_first_hit, hit_below; assumption).
  destruct (serve_last main height_of Hne batch _ _ Hb E) as (H1 & H2 & H3).
  split; [exact H1|]. split; [exact (start_of_hit main height_of _ _ E)|].
  split; [apply Hcons; exact H2|]. split; [exact H2|exact H3].
Qed.

Theorem C10_serve_no_new_info : forall main height_of, main <> [] -> forall batch prefix s suffix hs,
  Forall (fun x => height_of x = None) prefix -> height_of s = Some hs -> head_height main <= hs ->
  serve batch main height_of (prefix ++ s :: suffix) = [].
Proof.
  intros main height_of Hne batch prefix s suffix hs HF. apply serve_no_new_info_strong; [exact Hne|].
  revert HF. apply Forall_impl. intros a H. left. exact H.
Qed.

Theorem C10_relay_at_most_once : forall skip tx_valid_at tx_conflict,
  (forall a b, tx_conflict a b = tx_conflict b a) ->
  forall s0 es s o, Quiescent s0 -> PoolInv tx_valid_at tx_conflict s0 -> NoDup (block_ids s0) ->
  ok_run skip tx_valid_at tx_conflict s0 es -> run skip tx_valid_at tx_conflict s0 es = (s, o) ->
  (forall i, (count_occ N.eq_dec (relayed_blocks o) i <= 1)%nat) /\
  (forall i, In i (relayed_blocks o) -> ~ In i (block_ids s0) /\ In i (block_ids s)) /\
  Quiescent s /\ PoolInv tx_valid_at tx_conflict s /\ NoDup (block_ids s) /\ incl (block_ids s0) (block_ids s).
Proof. exact relay_at_most_once. Qed.

(* initial block download in the LINEAR case (the requester's chain is a prefix of the server's active chain): each round
   appends the next min(batch, remaining) ids, so after n rounds the requester holds min(|main|, |rc| + n*batch) blocks
   and reaches the server's chain; the forked case is not covered by a theorem (explored by the check) *)
Theorem C10_ibd_rounds_converge : forall batch main height_of, main <> [] ->
  (forall i h, nth_error main (N.to_nat h) = Some i -> height_of i = Some h) -> 0 < batch ->
  forall rc, rc <> [] -> prefix_of main rc -> forall n,
  prefix_of main (rounds batch main height_of n rc) /\
  length (rounds batch main height_of n rc) = Nat.min (length main) (length rc + n * N.to_nat batch).
Proof. intros batch main height_of H1 H2 _. exact (rounds_converge batch main height_of H1 H2). Qed.
Theorem C10_ibd_terminates : forall batch main height_of, main <> [] ->
  (forall i h, nth_error main (N.to_nat h) = Some i -> height_of i = Some h) -> 0 < batch ->
  forall rc, rc <> [] -> prefix_of main rc -> exists n, rounds batch main height_of n rc = main.
Proof. intros batch main height_of H1 H2 H3. exact (ibd_terminates batch main height_of H1 H2 H3). Qed.

(* a FORKED requester that is strictly behind (its chain shares the prefix `common` with the server's active chain, its own
   branch `side` is unknown to the server or known below the server's head): the first reply starts at or below the
   block after the fork point, every follow-up request continues where the last reply ended, and the ids the requester is
   told about cover every block of the server's active chain above the fork point -- nothing off that chain, in height
   order without gaps.  (Two nodes, no loss; equal-height forks are not required to switch and are not covered.) *)
Theorem C10_forked_requester_catches_up : forall batch main height_of common rest rc side,
  0 < batch -> main = common ++ rest -> rc = common ++ side -> common <> [] ->
  (forall i h, nth_error main (N.to_nat h) = Some i -> height_of i = Some h) ->
  (forall x, In x side -> ~ In x main /\ (height_of x = None \/ exists hx, height_of x = Some hx /\ hx < head_height main)) ->
  (length rc < length main)%nat ->
  (exists fuel, forall i, In i rest -> In i (catch_up batch main height_of fuel rc)) /\
  (forall fuel i, In i (catch_up batch main height_of fuel rc) -> In i main).
Proof.
  intros batch main height_of common rest rc side Hb Hm Hr Hc Hcons Hside Hbeh. split.
  - eapply catch_up_covers; eassumption.
  - intros fuel i. eapply catch_up_only_main; eassumption.
Qed.

Print Assumptions C10_forked_requester_catches_up.
Print Assumptions C10_ibd_rounds_converge.
Print Assumptions C10_ibd_terminates.
Print Assumptions C10_locator_exact.
Print Assumptions C10_locator_sorted.
Print Assumptions C10_serve_consecutive.
Print Assumptions C10_serve_parent_known.
Print Assumptions C10_serve_progress.
Print Assumptions C10_serve_no_new_info.
Print Assumptions C10_relay_at_most_once.
